(* C17 — incremental-map does work proportional to the change, not to the map.
   Statements about the step functions of Model/MapOps.v: their third component is the list of
   user-function invocations the step makes. *)
From stdpp Require Import base list option numbers sorting.
From Incr.Model Require Import SymDiff MapOps.
From Incr.Proofs Require Import SymDiffProofs SortedMaps MapOpsProofs.

(* incr_(filter_)map(i): on a non-empty new input the user function is invoked exactly on the keys that
   were added or whose value changed, each once, in key order — never for an unchanged key *)
Theorem C17_filter_mapi_calls_only_changed_keys :
  forall (V V2 : Type) (EqV : EqDecision V) (f : Z -> V -> option V2) old_in input n,
    sorted_map old_in -> sorted_map input -> length input = S n ->
    exists out ch,
      fm_step f (Some (old_in, filter_map_collect f old_in)) input = Some (out, ch, fm_called (diff_spec old_in input))
      /\ StronglySorted Z.lt (fm_called (diff_spec old_in input))
      /\ forall k, k ∈ fm_called (diff_spec old_in input) ->
           assoc_get old_in k <> assoc_get input k /\ is_Some (assoc_get input k).
Proof. intros V V2 EqV f. exact (fm_step_calls f). Qed.

(* (re)initialising processes every key once *)
Theorem C17_filter_mapi_initial_calls :
  forall (V V2 : Type) (EqV : EqDecision V) (f : Z -> V -> option V2) input,
    fm_step f None input = Some (filter_map_collect f input, true, keys input).
Proof. intros V V2 EqV f. exact (fm_step_initial f). Qed.

(* incr_unordered_fold: add / remove / update are invoked only for keys whose presence or value differs *)
Theorem C17_unordered_fold_calls_only_changed_keys :
  forall (V R : Type) (EqV : EqDecision V) (add remove : R -> Z -> V -> R)
         (update : option (R -> Z -> V -> V -> R)),
    (forall acc k v, remove (add acc k v) k v = acc) ->
    (forall acc k v k' v', k <> k' -> add (add acc k v) k' v' = add (add acc k' v') k v) ->
    (forall u, update = Some u -> forall acc k v v', u acc k v v' = add (remove acc k v) k v') ->
    forall a b, sorted_map a -> sorted_map b ->
    forall r k, (r, k) ∈ uf_called update (diff_spec a b) -> assoc_get a k <> assoc_get b k.
Proof. intros V R EqV add remove update _ _ _. exact (uf_calls_on_changed_keys update). Qed.

Theorem C17_unordered_fold_step_calls :
  forall (V R : Type) (EqV : EqDecision V) (add remove : R -> Z -> V -> R)
         (update : option (R -> Z -> V -> V -> R)) (init : R) a b c0,
    (forall acc k v, remove (add acc k v) k v = acc) ->
    (forall acc k v k' v', k <> k' -> add (add acc k v) k' v' = add (add acc k' v') k v) ->
    (forall u, update = Some u -> forall acc k v v', u acc k v v' = add (remove acc k v) k v') ->
    sorted_map a -> sorted_map b ->
    foldl (uf_apply add remove update) (FOLD add init a, c0) (diff_spec a b)
    = (FOLD add init b, c0 ++ uf_called update (diff_spec a b)).
Proof. intros V R EqV add remove update init a b c0 H1 H2 H3. exact (uf_fold_correct add remove update init H1 H2 H3 a b c0). Qed.

Example C17_nonvacuous :
  fm_called (diff_spec [(1, 5); (2, 0); (4, 7)]%Z [(1, 5); (2, 3); (3, 9)]%Z) = [2; 3]%Z.
Proof. vm_compute. reflexivity. Qed.

Print Assumptions C17_filter_mapi_calls_only_changed_keys.
Print Assumptions C17_filter_mapi_initial_calls.
Print Assumptions C17_unordered_fold_calls_only_changed_keys.
Print Assumptions C17_unordered_fold_step_calls.
