(* C06 — cutoffs gate propagation exactly.  Statements about E.  A dependant is (re)run only when it
   is stale, i.e. never ran or an input's [changed_at] is later than its [recomputed_at]
   ([is_stale], Engine.v); these theorems say when [changed_at] moves. *)
From stdpp Require Import base list option numbers.
From RecordUpdate Require Import RecordUpdate.
From Incr.Model Require Import Base Live Engine Api.
From Incr.Proofs Require Import Pres FrameChg Cutoffs.
Local Open Scope Z_scope.

(* Cutoff::Never always propagates, Cutoff::Always never does once there is an old value, the default
   compares with PartialEq *)
Theorem C06_never_always_default :
  forall n o v s,
    should_cutoff n CNever o v s = (Ok false, s)
    /\ should_cutoff n CAlways o v s = (Ok true, s)
    /\ should_cutoff n CPartialEq o v s = (Ok (val_eqb o v), s).
Proof. intros. split_and!; done. Qed.

(* function cutoffs (fn and boxed closure) are consulted exactly once with (old, new) in that order and
   their answer decides *)
Theorem C06_fn_cutoff_consulted_with_old_then_new :
  forall n cid o v s r s',
    (should_cutoff n (CFn cid) o v s = (Ok r, s') \/ should_cutoff n (CBoxed cid) o v s = (Ok r, s')) ->
    r = cut_sem cid o v /\ events s' = EvCut n o v r :: events s /\ inv_count s' = S (inv_count s).
Proof.
  intros n cid o v s r s' H. apply should_cutoff_fn in H. tauto.
Qed.

(* a suppressed result stops here: the node's value is replaced, nothing else happens — no timestamp
   moves, no dependant is queued or run *)
Theorem C06_suppressed_result_stops_propagation :
  forall fuel n v s x o s1,
    nodes s !! n = Some x -> n_value x = Some o ->
    should_cutoff n (n_cutoff x) o v (s <| nodes := alter (fun y => y <| n_value := None |>) n (nodes s) |>) = (Ok true, s1) ->
    maybe_change_value fuel n v s = (Ok None, s1 <| nodes := alter (fun y => y <| n_value := Some v |>) n (nodes s1) |>).
Proof. exact mcv_suppressed. Qed.

(* an unsuppressed result (no old value, or the cutoff said no) stamps the node with the current
   stabilisation number — which makes every dependant that has not run since stale (next theorem) —
   whatever else happens *)
Theorem C06_unsuppressed_result_is_stamped :
  forall fuel n old run_cc s r s' x,
    nodes s !! n = Some x ->
    maybe_change_value_manual fuel n old true run_cc s = (Ok r, s') ->
    exists x', nodes s' !! n = Some x' /\ n_changed_at x' = stab_num s.
Proof. exact mcv_manual_changed. Qed.

Theorem C06_stale_iff_input_stamped_since_last_run :
  forall s x, n_valid x = true ->
    match n_kind x with KVar _ | KConst _ | KExpert _ => False | _ => True end ->
    is_stale s x = bool_decide (n_recomputed_at x = -1)
                   || existsb (fun c => match nodes s !! c with
                                        | Some cx => bool_decide (n_recomputed_at x < n_changed_at cx)
                                        | None => false end) (children_of s x).
Proof. exact is_stale_spec. Qed.

(* non-vacuity: a default cutoff stops an equal result (the dependant is not re-invoked), Never lets it through *)
Example C06_nonvacuous :
  let h c := [OpVar 2; OpMap 5 [] [0%nat]; OpMap 2 [] [1%nat]; OpSetCutoff 1 c; OpObserve 2; OpStabilise;
              OpSet 0 5; OpStabilise] in
  let invs c := (fun e : res out * list event * state =>
                   omap (M := list) (fun ev => match ev with EvInv n _ _ _ => Some n | _ => None end) e.1.2)
                <$> run_history 100 128 true (h c) in
  stdpp.list.last (invs CPartialEq) = Some [1%nat] /\ stdpp.list.last (invs CNever) = Some [1%nat; 2%nat].
Proof. vm_compute. done. Qed.

Print Assumptions C06_never_always_default.
Print Assumptions C06_fn_cutoff_consulted_with_old_then_new.
Print Assumptions C06_suppressed_result_stops_propagation.
Print Assumptions C06_unsuppressed_result_is_stamped.
Print Assumptions C06_stale_iff_input_stamped_since_last_run.
