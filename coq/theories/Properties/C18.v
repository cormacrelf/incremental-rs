(* C18 — symmetric diff and ordered merge visit exactly the differing keys once, in order. *)
From stdpp Require Import base list option numbers sorting.
From Incr.Model Require Import SymDiff.
From Incr.Proofs Require Import SymDiffProofs.

(* [diff_at a b k] (SymDiffProofs.v) is what the property prescribes for key k:
   Left v if only in a, Right v if only in b, Unequal v w if in both with v <> w, nothing otherwise. *)

(* the borrowed iterator (BTreeMap, Rc<BTreeMap>): never runs out of fuel, visits keys in
   strictly ascending order (hence each at most once), and visits exactly what diff_at says *)
Theorem C18_symmetric_diff_exact :
  forall (V : Type) (EqV : EqDecision V) (a b : list (Z * V)),
    sorted_map a -> sorted_map b ->
    exists out, symmetric_diff a b = Some out
      /\ StronglySorted Z.lt (fst <$> out)
      /\ (forall k e, (k, e) ∈ out <-> diff_at a b k = Some (k, e)).
Proof.
  intros V EqV a b Ha Hb. exists (diff_spec a b). split_and!.
  - exact (symmetric_diff_correct a b Ha Hb).
  - exact (diff_spec_sorted a b Ha Hb).
  - intros k e. exact (diff_spec_elem a b k e Ha Hb).
Qed.

Theorem C18_nothing_when_equal :
  forall (V : Type) (EqV : EqDecision V) (a : list (Z * V)),
    sorted_map a -> symmetric_diff a a = Some [].
Proof.
  intros V EqV a Ha. rewrite (symmetric_diff_correct a a Ha Ha). f_equal.
  exact (diff_spec_refl a Ha).
Qed.

(* the owned iterator yields the same sequence (with keys attached) *)
Theorem C18_symmetric_diff_owned_same :
  forall (V : Type) (EqV : EqDecision V) (a b : list (Z * V)),
    symmetric_diff_owned a b = Some (own <$> diff_spec a b).
Proof. intros V EqV a b. exact (symmetric_diff_owned_correct a b). Qed.

(* the ordered merge of two keyed streams: pairs equal keys, otherwise global key order,
   no key skipped or visited twice *)
Theorem C18_merge_once_with_exact :
  forall (L R : Type) (a : list (Z * L)) (b : list (Z * R)),
    StronglySorted Z.lt (keys a) -> StronglySorted Z.lt (keys b) ->
    exists out, merge_once_with a b = Some out
      /\ StronglySorted Z.lt (merge_elem_key <$> out)
      /\ (forall x, x ∈ out <-> merge_at a b (merge_elem_key x) = Some x).
Proof.
  intros L R a b Ha Hb. exists (merge_spec a b). split_and!.
  - exact (merge_once_with_correct a b).
  - exact (merge_spec_sorted a b Ha Hb).
  - intros x. exact (merge_spec_elem a b x Ha Hb).
Qed.

(* MergeOnce over plain key streams: sorted union, ties once *)
Theorem C18_merge_once_exact :
  forall a b : list Z, StronglySorted Z.lt a -> StronglySorted Z.lt b ->
    exists out, mo_collect (S (length a + length b)) (MO a b None) = Some out
      /\ StronglySorted Z.lt out /\ (forall k, k ∈ out <-> k ∈ a \/ k ∈ b).
Proof. exact merge_once_correct. Qed.

(* non-vacuity: a concrete pair meets the premises and has a non-trivial diff *)
Example C18_nonvacuous :
  sorted_map [(1, 10); (2, 20); (3, 30)]%Z /\ sorted_map [(1, 10); (3, 31); (4, 40)]%Z
  /\ symmetric_diff [(1, 10); (2, 20); (3, 30)]%Z [(1, 10); (3, 31); (4, 40)]%Z
     = Some [(2, DLeft 20); (3, DUnequal 30 31); (4, DRight 40)]%Z.
Proof.
  split_and!; [repeat constructor; lia..|vm_compute; reflexivity].
Qed.

Print Assumptions C18_symmetric_diff_exact.
Print Assumptions C18_nothing_when_equal.
Print Assumptions C18_symmetric_diff_owned_same.
Print Assumptions C18_merge_once_with_exact.
Print Assumptions C18_merge_once_exact.
