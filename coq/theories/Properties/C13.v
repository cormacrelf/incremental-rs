(* C13 — a panic escaping stabilise poisons the state.  Statements about the engine model E
   (Model/{Base,Engine,Api}.v); each closed by [exact]. *)
From stdpp Require Import base list option numbers.
From Incr.Model Require Import Base Live Engine Api.
From Incr.Proofs Require Import Pres FrameStatus FrameRead Reads Poisoned.

(* whatever makes stabilise not return normally (a user function panicking at any invocation, an
   internal panic, even running out of fuel), the state it leaves behind is not NotStabilising *)
Theorem C13_failed_stabilise_poisons :
  forall fuel s, is_ok (stabilise fuel s).1 = false -> st_status (stabilise fuel s).2 <> NotStabilising.
Proof. exact stabilise_fail_poisons. Qed.

(* a further stabilise refuses to run and touches nothing *)
Theorem C13_poisoned_state_refuses_stabilise :
  forall fuel s, st_status s <> NotStabilising -> stabilise fuel s = (Panic PNestedStabilise, s).
Proof. exact stabilise_refuses. Qed.

(* no operation of the API ever resets the status: every state of the rest of the history is poisoned *)
Theorem C13_poison_is_permanent :
  forall fuel ops st s, st_status s <> NotStabilising ->
    Forall (fun e => st_status e.2 = st_status s) (run fuel ops st s).
Proof. exact run_keeps_poison. Qed.

(* if the panic happened during propagation (status Stabilising), every later read is refused with
   CurrentlyStabilising: no observer exposes a partially updated value.  (A read of an observer that
   does not exist is outside the DSL: PModelGap.) *)
Theorem C13_no_read_of_partial_state :
  forall fuel ops st s, st_status s = Stabilising ->
    Forall2 (fun o e => match o with
                        | OpRead _ => e.1.1 = Ok (OutRead (inr ERR_CURRENTLY_STABILISING))
                                      \/ e.1.1 = Panic (PModelGap 4)
                        | _ => True
                        end) ops (run fuel ops st s).
Proof. exact run_reads_refused. Qed.

(* non-vacuity: a history whose node function panics is poisoned, and the later read is refused *)
Example C13_nonvacuous :
  let h := [OpVar 1; OpMap 2 [EPanic] [0%nat]; OpObserve 1; OpStabilise; OpRead 0; OpStabilise] in
  (fun e => (e.1.1, st_status e.2)) <$> run_history 100 128 true h
  = [(Ok (OutNode 0), NotStabilising); (Ok (OutNode 1), NotStabilising); (Ok (OutObs 0), NotStabilising);
     (Panic PInjected, Stabilising);
     (Ok (OutRead (inr ERR_CURRENTLY_STABILISING)), Stabilising);
     (Panic PNestedStabilise, Stabilising)].
Proof. vm_compute. reflexivity. Qed.

(* once a stabilisation has failed no read moves any more: whatever the program does next — a further
   stabilise included — every observer that the program does not itself disallow or drop keeps returning
   exactly what it returned right after the failure.  When the panic came from an update handler the
   status is RunningOnUpdateHandlers, the propagation phase had finished, and what is returned are the
   fully propagated values (the example below); when it came from a node function the previous theorem
   says every read is refused.  Either way no later read can expose a mixture.  (The expert API's
   dependency surgery is left out, as in C07.) *)
Theorem C13_reads_frozen_after_failure :
  forall fuel ops st s o ob,
    st_status s <> NotStabilising ->
    Forall (fun op => expert_op op = false /\ op_target op <> Some o) ops ->
    obss s !! o = Some ob -> is_Some (nodes s !! o_observing ob) ->
    Forall (fun e => read_result e.2 o = read_result s o) (run fuel ops st s).
Proof. intros * H. apply run_reads_frozen. by left. Qed.

(* giving up handles — observers (last clone or not), variables, node handles, the handles bind closures
   handed out — never panics, whatever state the library is in; the only failure is a history naming a
   handle that was never created, which the DSL reports as a model gap *)
Theorem C13_dropping_handles_never_panics :
  forall fuel st o s, is_drop_op o = true -> no_real_panic (step fuel st o s).1.
Proof. exact drops_never_panic. Qed.

(* non-vacuity: a handler that panics leaves the fully propagated value readable, for good *)
Example C13_nonvacuous_handler :
  let h := [OpVar 1; OpMap 2 [] [0%nat]; OpObserve 1; OpSubscribe 0 (HFn 0 [EPanic]); OpSet 0 4; OpStabilise;
            OpRead 0; OpSet 0 9; OpStabilise; OpRead 0; OpDropObs 0; OpDropVar 0; OpDropNode 1] in
  (fun e => (e.1.1, st_status e.2)) <$> drop 5 (run_history 100 128 true h)
  = [(Panic PInjected, RunningOnUpdateHandlers);
     (Ok (OutRead (inl (VInt 8))), RunningOnUpdateHandlers);
     (Ok OutUnit, RunningOnUpdateHandlers);
     (Panic PNestedStabilise, RunningOnUpdateHandlers);
     (Ok (OutRead (inl (VInt 8))), RunningOnUpdateHandlers);
     (Ok OutUnit, RunningOnUpdateHandlers); (Ok OutUnit, RunningOnUpdateHandlers);
     (Ok OutUnit, RunningOnUpdateHandlers)].
Proof. vm_compute. reflexivity. Qed.

Print Assumptions C13_failed_stabilise_poisons.
Print Assumptions C13_poisoned_state_refuses_stabilise.
Print Assumptions C13_poison_is_permanent.
Print Assumptions C13_no_read_of_partial_state.
Print Assumptions C13_reads_frozen_after_failure.
Print Assumptions C13_dropping_handles_never_panics.
