(* C20 — weak_memoize_fn returns one shared node per live key, whatever the calling scope.
   Statements about the engine model E (Model/{Base,Engine,Api}.v: memo_call, within_scope,
   instantiate); each closed by [exact]. *)
From stdpp Require Import base list option numbers.
From RecordUpdate Require Import RecordUpdate.
From Incr.Model Require Import Base Live Engine Api.
From Incr.Proofs Require Import Pres FrameScope Memo.

(* while the node returned earlier for a key is still allocated, a call with that key returns that
   same node and does nothing else: the state (event log, invocation counter, graph) is unchanged, so
   the underlying function is not invoked — from whatever scope the call is made *)
Theorem C20_live_key_returns_same_node :
  forall f p m k s mm n x,
    memos s !! m = Some mm -> assoc_find k (m_table mm) = Some n -> nodes s !! n = Some x -> n_live x = true ->
    memo_call (S f) p m k s = (Ok n, s).
Proof. exact memo_call_hit. Qed.

(* two calls in a row, the first of any kind: the second returns the first's node, untouched state *)
Theorem C20_second_call_shares_the_node :
  forall f f' p p' m k s n s' x,
    memo_call (S f) p m k s = (Ok n, s') -> nodes s' !! n = Some x -> n_live x = true ->
    memo_call (S f') p' m k s' = (Ok n, s').
Proof. exact memo_call_twice. Qed.

(* a new key, or a key whose node has been freed: the underlying function runs again (its event is
   logged, its template is instantiated with the key), in the scope weak_memoize_fn was called in;
   afterwards the caller's scope is restored, the key is bound to the new result and the function's own
   temporaries are released ([p]: what the enclosing frames still hold) *)
Theorem C20_dead_or_new_key_invokes_function :
  forall f p m k s mm n s',
    memos s !! m = Some mm -> memo_miss s mm k -> memo_call (S f) p m k s = (Ok n, s') ->
    exists s1 s2, cur_scope s1 = m_scope mm /\ events s1 = EvMemoFn m k :: events s /\ nodes s1 = nodes s /\ memos s1 = memos s
      /\ instantiate f p (VInt k) (m_body mm) (m_ret mm) s1 = (Ok (Some n), s2)
      /\ s' = (collect (ONode n :: (ONode <$> p))
                 (s2 <| cur_scope := cur_scope s |>
                     <| memos := alter (fun mm => mm <| m_table := assoc_set k n (m_table mm) |>) m (memos s2) |>)).2.
Proof. exact memo_call_miss. Qed.

Theorem C20_call_restores_callers_scope :
  forall f p m k s n s', memo_call (S f) p m k s = (Ok n, s') -> cur_scope s' = cur_scope s.
Proof. exact memo_call_restores_scope. Qed.

(* every node created by a memoised call — directly, or by memoised functions it calls, whatever the
   outcome of the call and whatever scope it is made from — belongs to a scope in which some
   weak_memoize_fn was called, never to the caller's scope as such *)
Theorem C20_created_nodes_belong_to_creation_scopes :
  forall fuel p m k s i x,
    length (nodes s) <= i -> nodes (memo_call fuel p m k s).2 !! i = Some x -> n_created_in x ∈ memo_scopes s.
Proof. exact memo_call_new_nodes_scope. Qed.

(* in particular, when the functions were memoised at top level, a node obtained inside a bind
   closure is a top-level node: it is not among the nodes the bind's re-run or disposal invalidates as
   created in its scope (C03); it can still become invalid through an invalid input *)
Theorem C20_top_level_functions_create_top_level_nodes :
  forall fuel p m k s, Forall (fun mm => m_scope mm = STop) (memos s) ->
    forall i x, length (nodes s) <= i -> nodes (memo_call fuel p m k s).2 !! i = Some x -> n_created_in x = STop.
Proof. exact memo_call_top_scope. Qed.

(* the scope discipline for templates in general (bind closures included): scopes of memoised
   functions never change, and every new node or memoised function belongs to a scope in play *)
Theorem C20_scope_frame :
  forall fuel, (forall p v b r, pres Qsc (instantiate fuel p v b r)) /\ (forall p m k, pres Qsc (memo_call fuel p m k)).
Proof. exact sc_instantiate_memo. Qed.

(* non-vacuity: a history with calls from top level and from a bind closure.  The function runs for
   the first call, not for the second; after the handles are dropped it runs again; the bind closure
   (lhs 1) runs it for key 1 and the top-level call for key 1 gets that node; the bind re-runs with
   lhs 2; the node obtained for key 1 is still valid and reads the right value afterwards. *)
Definition is_memo_ev (e : event) : bool := match e with EvMemoFn _ _ => true | _ => false end.
Example C20_nonvacuous :
  let h := [OpVar 1; OpMemoNew (BindFn [] [([TConstLhs; TMap 1 [] [OLocal 0 0; OOuter 0]], OLocal 0 1)]);
            OpMemoCall 0 5; OpMemoCall 0 5; OpDropNode 1; OpDropNode 2; OpMemoCall 0 5; OpDropNode 3; OpMemoCall 0 5;
            OpBind 0 (BindFn [] [([TMemoCall 0 None], OLocal 0 0)]); OpObserve 5; OpStabilise; OpMemoCall 0 1;
            OpSet 0 2; OpStabilise; OpRead 0; OpObserve 6; OpStabilise; OpRead 1] in
  (fun e => (e.1.1, filter (fun e => is_memo_ev e = true) (events e.2))) <$> run_history 200 128 true h
  = [(Ok (OutNode 0), []); (Ok OutUnit, []);
     (Ok (OutNode 2), [EvMemoFn 0 5]); (Ok (OutNode 2), []);
     (Ok OutUnit, []); (Ok OutUnit, []); (Ok (OutNode 4), [EvMemoFn 0 5]);
     (Ok OutUnit, []); (Ok (OutNode 6), [EvMemoFn 0 5]);
     (Ok (OutNode 8), []); (Ok (OutObs 0), []);
     (Ok OutUnit, [EvMemoFn 0 1]); (Ok (OutNode 10), []);
     (Ok OutUnit, []); (Ok OutUnit, [EvMemoFn 0 2]);
     (Ok (OutRead (inl (VInt 6))), []); (Ok (OutObs 1), []);
     (Ok OutUnit, []); (Ok (OutRead (inl (VInt 4))), [])].
Proof. vm_compute. reflexivity. Qed.

Print Assumptions C20_live_key_returns_same_node.
Print Assumptions C20_second_call_shares_the_node.
Print Assumptions C20_dead_or_new_key_invokes_function.
Print Assumptions C20_call_restores_callers_scope.
Print Assumptions C20_created_nodes_belong_to_creation_scopes.
Print Assumptions C20_top_level_functions_create_top_level_nodes.
Print Assumptions C20_scope_frame.
