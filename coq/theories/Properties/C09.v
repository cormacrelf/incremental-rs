(* C09 — subscribers: Initialised once, Changed only on real change, then one Invalidated.
   Statements about E.  A subscription's callback receives Initialised(v) for NUNecessary, Changed(v)
   for NUChanged and Invalidated for NUInvalidated (really_run, Api.v). *)
From stdpp Require Import base list option numbers.
From Incr.Model Require Import Base Live Engine Api.
From RecordUpdate Require Import RecordUpdate.
From Incr.Proofs Require Import Pres OkPres Handlers HandlerQueue FrameHasGrow HandlerQueueEnd FrameHasInv HandlerChain HandlerCount Histories.

(* OnUpdateHandler::run is exactly the decision table [deliver] (Handlers.v), guarded by "created in
   an earlier stabilisation" *)
Theorem C09_handler_table :
  forall o ix h n nu now,
    handler_run o ix h n nu now =
      if bool_decide (hd_created_at h < now)%Z then
        match deliver (hd_prev h) nu with
        | Some k => really_run o ix h n k
        | None => ret tt
        end
      else ret tt.
Proof. exact handler_run_eq. Qed.

(* handlers attached to the node itself (Incr::on_update) go through the same table; they are the ones
   that can hear Unnecessary *)
Theorem C09_node_handler_table :
  forall n ix h nu now,
    node_handler_run n ix h nu now =
      if bool_decide (hd_created_at h < now)%Z then
        match deliver (hd_prev h) nu with
        | Some k => node_really_run n ix h k
        | None => ret tt
        end
      else ret tt.
Proof. exact node_handler_run_eq. Qed.

(* what the node reports at the end of a stabilise: Changed exactly when it is valid, necessary, has a
   value and that value changed in the stabilise that just ended *)
Theorem C09_node_report :
  forall n s x, nodes s !! n = Some x ->
    node_update_of n s =
      (Ok (if negb (n_valid x) then NUInvalidated
           else if negb (is_necessary x) then NUUnnecessary
           else match node_value (S n) s n with
                | Some _ => if bool_decide (n_changed_at x + 1 = stab_num s)%Z then NUChanged else NUNecessary
                | None => NUNecessary
                end), s).
Proof. exact node_update_of_eq. Qed.

Theorem C09_observed_node_never_reports_unnecessary :
  forall n s x r s', nodes s !! n = Some x -> n_observers x <> [] ->
    node_update_of n s = (Ok r, s') -> r <> NUUnnecessary.
Proof. exact observed_not_unnecessary. Qed.

(* over any sequence of reports of an observed node, a subscription hears Initialised at most once
   and only as the first thing; the first thing is never Changed; after Invalidated it hears nothing;
   it hears Changed only when the node reported Changed; and a reported change is never dropped *)
Theorem C09_initialised_at_most_once_and_first :
  forall nus, no_unnecessary nus ->
    match deliveries PNever nus with
    | [] => True
    | d :: ds => NUNecessary ∉ ds
    end.
Proof. exact initialised_once. Qed.

Theorem C09_first_delivery_is_not_changed :
  forall nus d ds, deliveries PNever nus = d :: ds -> d = NUNecessary \/ d = NUInvalidated \/ d = NUUnnecessary.
Proof. exact first_is_initialised. Qed.

Theorem C09_nothing_after_invalidated :
  forall nus, deliveries PInvalidated nus = [].
Proof. exact nothing_after_invalidated. Qed.

Theorem C09_changed_only_when_node_changed :
  forall prev nus, NUChanged ∈ deliveries prev nus -> NUChanged ∈ nus.
Proof. exact changed_only_when_reported. Qed.

Theorem C09_change_is_never_lost :
  forall prev, prev <> PInvalidated -> is_Some (deliver prev NUChanged).
Proof. exact changed_is_never_lost. Qed.

(* ---- no callback after disallow_future_use / the last handle is dropped / Observer::unsubscribe
   (State::unsubscribe on an observer that is still Created is a no-op in the crate and in the model:
   no theorem here covers it) *)
(* the handlers of a disallowed observer are not run: run_all touches nothing *)
Theorem C09_disallowed_observer_hears_nothing :
  forall o n nu now s ob,
    obss s !! o = Some ob -> o_state ob = ODisallowed -> run_all o n nu now s = (Ok tt, s).
Proof. exact run_all_disallowed. Qed.

(* after unsubscribe returns, the observer's table holds no handler with that token: run_all, which only walks
   the table, cannot call it again *)
Theorem C09_unsubscribed_handler_is_gone :
  forall o tok s c s',
    unsubscribe o o tok s = (Ok c, s') ->
    forall ob', obss s' !! o = Some ob' -> (o_state ob' = OInUse \/ o_state ob' = OCreated) ->
      Forall (fun h => hd_token h <> tok) (o_handlers ob').
Proof. exact unsubscribe_removes. Qed.

(* ---- from "the node changed" to "its handlers are told": the queue.
   [has_inv s]: every live node whose is_in_handle_after_stabilisation flag is set is on the state's
   handle_after_stabilisation stack, and the stack names existing nodes only.  It holds in every state
   of every history (both build profiles, whether or not operations panic). *)
Theorem C09_flagged_nodes_are_on_the_stack_in_every_history :
  forall fuel max_height dbg ops, Forall (fun e => has_inv e.2) (run_history fuel max_height dbg ops).
Proof. exact history_has_inv. Qed.

(* an unsuppressed result of a live node with at least one handler puts the node on the stack, whatever
   happens afterwards (dependants recomputed directly, panics) *)
Theorem C09_changed_node_with_handlers_is_queued :
  forall fuel n old rc s x,
    has_inv s -> nodes s !! n = Some x -> n_live x = true -> (0 < n_num_handlers x)%Z ->
    n ∈ has_stack (maybe_change_value_manual fuel n old true rc s).2.
Proof. exact mcv_manual_queues. Qed.

(* nothing takes it off the stack before the propagation phase is over *)
Theorem C09_queued_until_the_end_of_propagation :
  forall fuel s n, n ∈ has_stack s -> n ∈ has_stack (stabilise_loop fuel s).2.
Proof. exact queued_until_end_of_propagation. Qed.

(* the first phase of stabilise_end is: bump the stabilisation number and apply the deferred writes
   (which keep the stack), then empty the stack into the run queue ... *)
Theorem C09_end_of_stabilise_in_two_steps :
  forall s, stabilise_end_prepare s = (end_prepare_prefix ;;; end_prepare_queue) s.
Proof. exact stabilise_end_prepare_split. Qed.

Theorem C09_deferred_writes_keep_the_stack : pres Rhas end_prepare_prefix.
Proof. exact has_end_prepare_prefix. Qed.

(* ... where every node of the stack that is still alive gets an entry (node, report) — the report is
   node_update_of (C09_node_report) — and the invariant is re-established with an empty stack *)
Theorem C09_every_live_queued_node_is_reported :
  forall s, has_inv s ->
    exists s', end_prepare_queue s = (Ok tt, s') /\ has_inv s'
      /\ (forall n x, n ∈ has_stack s -> nodes s !! n = Some x -> n_live x = true -> exists nu, (n, nu) ∈ run_ouh s').
Proof. exact end_prepare_queue_spec. Qed.

(* ---- the counter that decides whether a changed node is queued at all.
   HCd (Proofs/HandlerCount.v): in every node, num_on_update_handlers = the handlers attached to the node itself
   + the handlers of every observer linked to it (InUse or Disallowed-not-yet-unlinked), the observer lists have
   no duplicates and agree with the observers' own states, and the subscription tokens of one observer are
   distinct.  It holds after every operation of every history of a debug build, up to the first operation that
   fails: observe, add_new_observers, unlink_disallowed_observers, disallow_future_use, subscribe, unsubscribe and
   add_on_update_handler keep the books; every other engine function leaves them alone (generated frame). *)
Theorem C09_handler_count_is_exact_in_every_history :
  forall fuel max_height ops, while_ok (run_history fuel max_height true ops) HCd.
Proof. exact history_handler_count. Qed.

(* hence a node with a subscribed linked observer, or with a handler of its own, has a positive counter — the
   hypothesis of C09_changed_node_with_handlers_is_queued — so its change is queued and never lost *)
Theorem C09_subscribed_observer_keeps_the_counter_positive :
  forall s o ob x,
    HC s -> obss s !! o = Some ob -> linked ob -> o_handlers ob <> [] -> nodes s !! o_observing ob = Some x ->
    (0 < n_num_handlers x)%Z.
Proof. exact linked_subscription_counts. Qed.

Theorem C09_own_handler_keeps_the_counter_positive :
  forall s n x, HC s -> nodes s !! n = Some x -> n_handlers x <> [] -> (0 < n_num_handlers x)%Z.
Proof. exact own_handler_counts. Qed.

(* non-vacuity: after a subscription and two stabilisations the observed node's counter is 1, and two after a second
   subscription; unsubscribing takes it back *)
Example C09_counter_nonvacuous :
  let h := [OpVar 1; OpObserve 0; OpSubscribe 0 (HFn 7 []); OpStabilise; OpSubscribe 0 (HFn 8 []); OpSet 0 2; OpStabilise;
            OpUnsubscribe 0 0; OpStabilise] in
  (fun e : res out * list event * state =>
     (match e.1.1 with Ok _ => true | _ => false end, (fun x => n_num_handlers x) <$> nodes e.2)) <$> run_history 100 128 true h
  = [(true, [0%Z]); (true, [0%Z]); (true, [0%Z]); (true, [1%Z]); (true, [2%Z]); (true, [2%Z]); (true, [2%Z]);
     (true, [1%Z]); (true, [1%Z])].
Proof. vm_compute. reflexivity. Qed.

(* non-vacuity: the callbacks of a concrete history *)
Example C09_nonvacuous :
  let h := [OpVar 1; OpObserve 0; OpSubscribe 0 (HFn 7 []); OpStabilise; OpStabilise; OpObserve 0; OpStabilise;
            OpSet 0 2; OpStabilise] in
  (fun e : res out * list event * state =>
     omap (M := list) (fun ev => match ev with EvUpd _ _ _ _ _ => Some ev | _ => None end) e.1.2)
    <$> run_history 100 128 true h
  = [[]; []; []; [EvUpd 0 1 7 NUNecessary (Some (VInt 1))]; []; []; []; [];
     [EvUpd 0 1 7 NUChanged (Some (VInt 2))]].
Proof. vm_compute. reflexivity. Qed.

Print Assumptions C09_handler_table.
Print Assumptions C09_node_report.
Print Assumptions C09_observed_node_never_reports_unnecessary.
Print Assumptions C09_initialised_at_most_once_and_first.
Print Assumptions C09_first_delivery_is_not_changed.
Print Assumptions C09_nothing_after_invalidated.
Print Assumptions C09_changed_only_when_node_changed.
Print Assumptions C09_change_is_never_lost.
Print Assumptions C09_flagged_nodes_are_on_the_stack_in_every_history.
Print Assumptions C09_changed_node_with_handlers_is_queued.
Print Assumptions C09_queued_until_the_end_of_propagation.
Print Assumptions C09_end_of_stabilise_in_two_steps.
Print Assumptions C09_deferred_writes_keep_the_stack.
Print Assumptions C09_every_live_queued_node_is_reported.
Print Assumptions C09_node_handler_table.
Print Assumptions C09_disallowed_observer_hears_nothing.
Print Assumptions C09_unsubscribed_handler_is_gone.
Print Assumptions C09_handler_count_is_exact_in_every_history.
Print Assumptions C09_subscribed_observer_keeps_the_counter_positive.
Print Assumptions C09_own_handler_keeps_the_counter_positive.
