(* C14 — expert nodes with dynamic dependencies.  Statements about the engine model E
   (Model/Engine.v: expert_add_dependency, expert_remove_dependency, ex_swap_children,
   ex_pop_child_edge, run_edge_callback, edge_on_change, expert_make_stale).

   These theorems cover the bookkeeping clauses of the property: the children vector and the index
   cells stay in step through every addition and removal (duplicates on one child included), nothing
   else in the engine writes them, change callbacks are delivered on linking exactly when the node has
   already run and the child has a value, a child without a value never panics a callback.  The
   value clause (the node equals its reference combinator after every stabilise) is decided by the
   correspondence run and its oracle, not by a theorem: see DESIGN.md. *)
From stdpp Require Import base list option numbers.
From RecordUpdate Require Import RecordUpdate.
From Incr.Model Require Import Base Live Engine Api.
From Incr.Proofs Require Import Pres FrameDeps Expert Edges.

(* adding a dependency appends one fresh edge on the requested child and keeps "the i-th edge's
   index cell says i, no edge twice" — whether or not the node is necessary, whatever linking the
   child triggers (heights, invalidity propagation, callbacks) *)
Theorem C14_add_dependency_keeps_children_consistent :
  forall fuel n child cb s eid s' x nd,
    nodes s !! n = Some nd -> node_kind nd = Some (KExpert x) -> children_ok s x ->
    expert_add_dependency fuel n child cb s = (Ok eid, s') ->
    eid = length (edges s)
    /\ (exists ex ex', experts s !! x = Some ex /\ experts s' !! x = Some ex' /\ ex_children ex' = ex_children ex ++ [eid])
    /\ (exists ed, edges s' !! eid = Some ed /\ ed_child ed = child)
    /\ children_ok s' x.
Proof. exact add_dependency_children. Qed.

(* removing a dependency — any one of them, also one of two on the same child, also one whose child is
   invalid — takes exactly that edge out (swap with the last, pop), clears its cell, and keeps the
   vector consistent *)
Theorem C14_remove_dependency_keeps_children_consistent :
  forall fuel n eid s s' x nd ex,
    nodes s !! n = Some nd -> node_kind nd = Some (KExpert x) -> children_ok s x ->
    experts s !! x = Some ex -> eid ∈ ex_children ex ->
    expert_remove_dependency fuel n eid s = (Ok tt, s') ->
    children_ok s' x
    /\ (exists ex', experts s' !! x = Some ex' /\ forall e, e ∈ ex_children ex' <-> e ∈ ex_children ex /\ e <> eid)
    /\ (exists ed, edges s' !! eid = Some ed /\ ed_index ed = None).
Proof. exact remove_dependency_children. Qed.

(* nothing else rewires an expert node: linking and unlinking parents, (un)necessity cascades,
   invalidation and its propagation, height adjustment, make_stale leave every children vector and
   every edge's child / callback flag / index cell as they were, whatever their outcome *)
Theorem C14_only_add_and_remove_rewire :
  forall fuel,
    (forall a b c, pres Rdep (state_add_parent fuel a b c))
    /\ (forall n, pres Rdep (became_necessary fuel n))
    /\ (forall n, pres Rdep (became_unnecessary fuel n))
    /\ (forall n, pres Rdep (invalidate_node fuel n))
    /\ pres Rdep (propagate_invalidity fuel)
    /\ (forall n, pres Rdep (expert_make_stale n))
    /\ (forall x a b, pres Rdep (var_write x a) /\ pres Rdep (observer_read b)).
Proof.
  intros fuel. split_and!; intros;
    auto using dep_state_add_parent, dep_became_necessary, dep_became_unnecessary, dep_invalidate_node,
      dep_propagate_invalidity, dep_expert_make_stale, dep_var_write, dep_observer_read.
Qed.

(* a node that has already run hears at once about the edge at a child index, with the child's
   current value (this is what linking a new dependency on an already computed child does); until
   its first run, and after being unobserved, it waits for the next recompute, which fires all *)
Theorem C14_callback_on_link_delivers_current_value :
  forall p x ci s ex e ed v,
    experts s !! x = Some ex -> ex_fire_all ex = false -> zget (ex_children ex) ci = Some e ->
    edges s !! e = Some ed -> ed_cb ed = CbLog -> node_value (S (ed_child ed)) s (ed_child ed) = Some v ->
    crash_at s <> Some (S (inv_count s)) ->
    run_edge_callback p x ci s =
      (Ok tt, s <| inv_count := S (inv_count s) |> <| events := EvEdgeCb p e v :: events s |>
                <| edges := alter (fun d => d <| ed_seen := Some v |>) e (edges s) |>).
Proof.
  intros p x ci s ex e ed v Hx Hf Hc He Hcb Hv Hcr.
  unfold run_edge_callback, get_expert, bindM, get, ret. cbv beta iota. rewrite Hx. cbv beta iota.
  rewrite Hf, Hc. unfold edge_on_change, get_edge, bindM, get, ret. cbv beta iota. rewrite He. cbv beta iota. rewrite Hcb.
  unfold value_of, bindM, get, ret. cbv beta iota. rewrite Hv.
  unfold user_call, bindM, modify, get, emit, upd_edge, modify. cbv beta iota. simpl.
  rewrite bool_decide_eq_false_2 by done. reflexivity.
Qed.

Theorem C14_callbacks_wait_for_the_first_recompute :
  forall p x ci s ex, experts s !! x = Some ex -> ex_fire_all ex = true -> run_edge_callback p x ci s = (Ok tt, s).
Proof.
  intros p x ci s ex Hx Hf. unfold run_edge_callback, get_expert, bindM, get, ret. cbv beta iota. rewrite Hx. cbv beta iota.
  by rewrite Hf.
Qed.

(* a dependency whose child has no value yet, or is invalid, does not panic its callback *)
Theorem C14_callback_skips_child_without_value :
  forall p e s ed, edges s !! e = Some ed -> node_value (S (ed_child ed)) s (ed_child ed) = None ->
    edge_on_change p e s = (Ok tt, s).
Proof.
  intros p e s ed He Hv. unfold edge_on_change, get_edge, bindM, get, ret. cbv beta iota. rewrite He. cbv beta iota.
  destruct (ed_cb ed); [done| |]; unfold value_of, bindM, get, ret; cbv beta iota; by rewrite Hv.
Qed.

(* non-vacuity: the join idiom re-selecting the child it already has (two dependencies on one child,
   one removed), a dependency added from top level after the node ran, and unobserve / re-observe *)
Definition is_expert_ev (e : event) : bool :=
  match e with EvEdgeCb _ _ _ | EvExpertRun _ _ => true | _ => false end.
Example C14_nonvacuous :
  let h := [OpVar 3; OpVar 10; OpVar 20; OpExpert 0;
            OpMap 0 [ESwapDep 3 0 [1; 2]%nat true] [0%nat]; OpAddDep 3 4 1 true; OpObserve 3; OpStabilise; OpRead 0;
            OpSet 0 5; OpStabilise; OpRead 0;           (* 5 mod 2 = 1: the same child again *)
            OpAddDep 3 1 2 true; OpStabilise; OpRead 0;  (* added after the node ran, on a computed child *)
            OpDropObs 0; OpStabilise; OpSet 2 7; OpSet 0 4; OpObserve 3; OpStabilise; OpRead 1] in
  (fun e => (e.1.1, rev (filter (fun e => is_expert_ev e = true) (events e.2)))) <$> run_history 300 128 true h
  = [(Ok (OutNode 0), []); (Ok (OutNode 1), []); (Ok (OutNode 2), []); (Ok (OutNode 3), []);
     (Ok (OutNode 4), []); (Ok OutUnit, []); (Ok (OutObs 0), []);
     (Ok OutUnit, [EvEdgeCb 3 0 (VInt 3); EvEdgeCb 3 1 (VInt 20); EvExpertRun 3 (VInt 23)]);
     (Ok (OutRead (inl (VInt 23))), []);
     (Ok OutUnit, []);
     (Ok OutUnit, [EvEdgeCb 3 2 (VInt 20); EvEdgeCb 3 0 (VInt 5); EvExpertRun 3 (VInt 25)]);
     (Ok (OutRead (inl (VInt 25))), []);
     (Ok OutUnit, []);
     (Ok OutUnit, [EvEdgeCb 3 3 (VInt 10); EvExpertRun 3 (VInt 35)]);
     (Ok (OutRead (inl (VInt 35))), []);
     (Ok OutUnit, []); (Ok OutUnit, []); (Ok OutUnit, []); (Ok OutUnit, []); (Ok (OutObs 1), []);
     (* re-observed: every callback fires (in vector order after the swap-remove), then the node runs *)
     (Ok OutUnit, [EvEdgeCb 3 0 (VInt 4); EvEdgeCb 3 4 (VInt 10); EvEdgeCb 3 3 (VInt 10); EvExpertRun 3 (VInt 24)]);
     (Ok (OutRead (inl (VInt 24))), [])].
Proof. vm_compute. reflexivity. Qed.

(* swapping two children of an expert node (what remove_dependency does before popping the last one) exchanges
   the child indices of the two links on both ends — also when both edges lead to the same child *)
Theorem C14_swap_children_exchanges_the_links :
  forall n c1 c2 ci1 ci2 i1 i2 s s',
    link s c1 i1 n ci1 -> link s c2 i2 n ci2 -> ci1 <> ci2 ->
    expert_swap_children_except_in_kind n c1 ci1 c2 ci2 s = (Ok tt, s') ->
    link s' c1 i1 n ci2 /\ link s' c2 i2 n ci1.
Proof. exact swap_children_links. Qed.

Print Assumptions C14_add_dependency_keeps_children_consistent.
Print Assumptions C14_remove_dependency_keeps_children_consistent.
Print Assumptions C14_only_add_and_remove_rewire.
Print Assumptions C14_callback_on_link_delivers_current_value.
Print Assumptions C14_callbacks_wait_for_the_first_recompute.
Print Assumptions C14_callback_skips_child_without_value.
Print Assumptions C14_swap_children_exchanges_the_links.
