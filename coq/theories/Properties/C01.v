(* C01 — observed values equal a from-scratch evaluation after every stabilise.  Statements about the
   engine model E.

   Proved here: local soundness, for every state — when a node is recomputed, its kind's defining
   function is applied to the values its inputs have at that moment (map_ref inputs read through), and
   the result is what maybe_change_value stores, whether or not the cutoff suppresses the change.
   Together with C02 (a node that has been recomputed in a stabilisation is not stale for the rest of
   it) this is the inductive step of "every needed node holds the value of its defining expression"; the
   induction itself — over the height order in which the heap releases nodes — needs the height
   invariant, which is not proved.  The values every observer returns after every stabilise are
   compared with the crate and with the from-scratch evaluator of checks/ref.py: see DESIGN.md. *)
From stdpp Require Import base list option numbers.
From RecordUpdate Require Import RecordUpdate.
From Incr.Model Require Import Base Live Engine Api.
From Incr.Proofs Require Import Local Vars.

Theorem C01_inputs_are_read_at_their_current_values :
  forall cs vs site s,
    Forall2 (fun c v => node_value (S c) s c = Some v) cs vs ->
    mapM (fun c => unwrap_value c site) cs s = (Ok vs, s).
Proof. exact unwrap_values. Qed.

Theorem C01_map_node_applies_its_function_to_the_current_inputs :
  forall fuel n s x f cs vs,
    nodes s !! n = Some x -> node_kind x = Some (KMap f cs) -> c_internal f = false ->
    Forall2 (fun c v => node_value (S c) s c = Some v) cs vs ->
    recompute_body fuel n s =
      (user_call ;;;
       run_effects fuel (default VUnit (vs !! 0%nat)) (c_effs f) ;;;
       emit (EvInv n (c_cap f) vs (fn_sem (c_fid f) (c_cap f) vs)) ;;;
       maybe_change_value fuel n (fn_sem (c_fid f) (c_cap f) vs)) s.
Proof. exact map_node_computes. Qed.

Theorem C01_fold_node_folds_the_current_inputs :
  forall fuel n s x f init cs vs,
    nodes s !! n = Some x -> node_kind x = Some (KFold f init cs) ->
    Forall2 (fun c v => node_value (S c) s c = Some v) cs vs ->
    recompute_body fuel n s = (acc <- fold_steps n f init vs ;; maybe_change_value fuel n acc) s.
Proof. exact fold_node_computes. Qed.

Theorem C01_bind_main_copies_its_current_right_hand_side :
  forall fuel n s x b lc bd rhs rx v,
    nodes s !! n = Some x -> node_kind x = Some (KBindMain b lc) ->
    binds s !! b = Some bd -> b_rhs bd = Some rhs ->
    nodes s !! rhs = Some rx -> n_valid rx = true -> node_value (S rhs) s rhs = Some v ->
    recompute_body fuel n s = maybe_change_value fuel n v s.
Proof. exact bind_main_copies. Qed.

Theorem C01_constant_node :
  forall fuel n s x v,
    nodes s !! n = Some x -> node_kind x = Some (KConst v) -> recompute_body fuel n s = maybe_change_value fuel n v s.
Proof. exact const_node_computes. Qed.

Theorem C01_variable_node_reads_the_variable :
  forall fuel n s x xn v,
    nodes s !! n = Some xn -> node_kind xn = Some (KVar x) -> vars s !! x = Some v ->
    exists s1, recompute_one fuel n s = maybe_change_value fuel n (v_value v) s1 /\ vars s1 = vars s.
Proof. exact var_node_reads_value. Qed.

(* the value is stored before anything is propagated, suppressed or not *)
Theorem C01_the_result_is_stored :
  forall fuel n v s x b s1,
    nodes s !! n = Some x ->
    match n_value x with
    | None => b = true /\ s1 = s <| nodes := alter (fun y => y <| n_value := None |>) n (nodes s) |>
    | Some o => should_cutoff n (n_cutoff x) o v (s <| nodes := alter (fun y => y <| n_value := None |>) n (nodes s) |>) = (Ok (negb b), s1)
    end ->
    maybe_change_value fuel n v s =
      maybe_change_value_manual fuel n (n_value x) b true
        (s1 <| nodes := alter (fun y => y <| n_value := Some v |>) n (nodes s1) |>).
Proof. exact mcv_stores. Qed.

(* non-vacuity: a diamond over one variable (x, 2x, and their sum); the values after each stabilise are
   the from-scratch values, computed by hand for x = 3 and x = 4 *)
Example C01_nonvacuous :
  let h := [OpVar 3; OpMap 2 [] [0%nat]; OpMap 1 [] [0%nat; 1%nat]; OpObserve 2; OpStabilise; OpSet 0 4; OpStabilise] in
  (fun e : res out * list event * state => (fun x => n_value x) <$> nodes e.2) <$> run_history 100 128 false h
  = [[None]; [None; None]; [None; None; None]; [None; None; None];
     [Some (VInt 3); Some (VInt 6); Some (VInt 9)]; [Some (VInt 3); Some (VInt 6); Some (VInt 9)];
     [Some (VInt 4); Some (VInt 8); Some (VInt 12)]].
Proof. vm_compute. reflexivity. Qed.

Print Assumptions C01_inputs_are_read_at_their_current_values.
Print Assumptions C01_map_node_applies_its_function_to_the_current_inputs.
Print Assumptions C01_fold_node_folds_the_current_inputs.
Print Assumptions C01_bind_main_copies_its_current_right_hand_side.
Print Assumptions C01_constant_node.
Print Assumptions C01_variable_node_reads_the_variable.
Print Assumptions C01_the_result_is_stored.
