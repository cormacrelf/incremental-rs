(* C12 — nothing leaks and no drop order is unsafe.  Statements about the ownership abstraction of E
   (Model/Live.v): [out_edges] lists the strong (Rc) references each struct holds, [roots] what the
   program and the state's own containers hold, [collect] frees what a reference-counting heap frees. *)
From stdpp Require Import base list option numbers.
From Incr.Model Require Import Base Live Engine Api.
From Incr.Proofs Require Import Pres LiveProofs FrameRead Reads Poisoned.

(* after any collection, every object still allocated is held by the program (a node/var/observer
   handle, an exported node), by the state's containers (in-use observers, heap queues), by a pinned
   local — or by another allocated object.  Nothing else survives: a subgraph whose handles were all
   dropped and that no observer reaches is released, closures included (their captures are edges) —
   except that objects on a strong cycle hold each other, as with Rc (Model/Live.v): a variable and its
   watch node stay allocated until the next stabilise breaks their cycle. *)
Theorem C12_nothing_unreferenced_survives :
  forall s pins x, obj_live (collect pins s).2 x = true ->
    x ∈ roots s pins \/ exists y, obj_live (collect pins s).2 y = true /\ x ∈ out_edges (collect pins s).2 y.
Proof. exact collect_no_leak. Qed.

(* no drop order is unsafe: whatever is released, no allocated object keeps a strong reference to it *)
Theorem C12_no_dangling_reference :
  forall s pins x y, obj_live (collect pins s).2 y = true -> x ∈ out_edges (collect pins s).2 y ->
    obj_live s x = true -> obj_live (collect pins s).2 x = true.
Proof. exact collect_no_dangling. Qed.

(* what the program still holds is never released *)
Theorem C12_held_objects_survive :
  forall s pins x, x ∈ roots s pins -> obj_live s x = true -> obj_live (collect pins s).2 x = true.
Proof. exact collect_keeps_roots. Qed.

(* releasing objects never changes what any remaining observer reads *)
Theorem C12_release_does_not_affect_reads :
  forall pins s o ob, obss s !! o = Some ob -> is_Some (nodes s !! o_observing ob) ->
    read_result (collect pins s).2 o = read_result s o.
Proof. intros * Ho Hex. eapply Rro_read; [apply Rro_of_Rread, Rread_collect|done..]. Qed.

(* handles may be given up in any order: a sequence of drops — observers (last clone or not), variables,
   node handles, the handles bind closures exported — never panics, whatever the state (before or after a
   stabilise, or in the middle of a failed one) ... *)
Theorem C12_dropping_handles_never_panics :
  forall fuel st o s, is_drop_op o = true -> no_real_panic (step fuel st o s).1.
Proof. exact drops_never_panic. Qed.

(* ... and, in whatever order, leaves the read of every observer that is not itself being dropped as it was *)
Theorem C12_dropping_handles_does_not_affect_reads :
  forall fuel ops st s o ob,
    Forall (fun op => is_drop_op op = true /\ op_target op <> Some o) ops ->
    obss s !! o = Some ob -> is_Some (nodes s !! o_observing ob) ->
    Forall (fun e => read_result e.2 o = read_result s o) (run fuel ops st s).
Proof.
  intros * Hops. apply run_reads_frozen; [right|]; (eapply Forall_impl; [|exact Hops]); intros op [Hd Ht].
  - by intros ->.
  - by destruct op.
Qed.

(* non-vacuity: after the handle of a chain is dropped and its observer is gone, one stabilise later
   the whole chain is released, while the still-observed part stays *)
Example C12_nonvacuous :
  let h := [OpVar 1; OpMap 2 [] [0%nat]; OpMap 2 [] [1%nat]; OpObserve 2; OpObserve 0; OpStabilise;
            OpDropNode 1; OpDropNode 2; OpDropObs 0; OpStabilise] in
  match stdpp.list.last (run_history 100 128 true h) with
  | Some (_, _, s) => n_live <$> nodes s
  | None => []
  end = [true; false; false].
Proof. vm_compute. reflexivity. Qed.

Print Assumptions C12_nothing_unreferenced_survives.
Print Assumptions C12_no_dangling_reference.
Print Assumptions C12_held_objects_survive.
Print Assumptions C12_release_does_not_affect_reads.
Print Assumptions C12_dropping_handles_never_panics.
Print Assumptions C12_dropping_handles_does_not_affect_reads.
