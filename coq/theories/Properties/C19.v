(* C19 — misuse and limits panic with a diagnostic; the height limit is exact.  Statements about E. *)
From stdpp Require Import base list option numbers.
From RecordUpdate Require Import RecordUpdate.
From Incr.Model Require Import Base Live Engine Api.
From Incr.Proofs Require Import Pres FrameStatus Heights OkPres HeightLimit FrameHeightLimit Histories.
Local Open Scope Z_scope.

(* every height the engine ever assigns goes through set_height.  While the greatest height seen is
   within the limit, set_height n h panics — with HeightLimit and nothing else — exactly when h
   exceeds the limit; an accepted height keeps "seen within the limit" and does not move the limit. *)
Theorem C19_height_limit_is_exact :
  forall n h s, ahh_max_seen s <= ahh_max_allowed s ->
    ((set_height n h s).1 = Panic PHeightLimit <-> ahh_max_allowed s < h)
    /\ (ahh_max_allowed s < h \/ (set_height n h s).1 = Ok tt).
Proof. exact height_limit_exact. Qed.

Theorem C19_accepted_height_keeps_the_limit :
  forall n h s, ahh_max_seen s <= ahh_max_allowed s -> (set_height n h s).1 = Ok tt ->
    ahh_max_seen (set_height n h s).2 <= ahh_max_allowed (set_height n h s).2
    /\ ahh_max_allowed (set_height n h s).2 = ahh_max_allowed s.
Proof. exact set_height_keeps_seen_within_limit. Qed.

(* new_with_height(N): both heaps admit exactly heights 0..N *)
Theorem C19_new_with_height :
  forall N dbg, 0 <= N ->
    ahh_max_allowed (init_state N dbg) = N /\ rch_max_allowed (init_state N dbg) = N
    /\ ahh_max_seen (init_state N dbg) = 0.
Proof. exact init_state_limit. Qed.

(* set_max_height_allowed(N): when it returns, both heaps admit exactly 0..N, and N was at least the
   greatest height seen; below the greatest height seen it panics and changes nothing *)
Theorem C19_set_max_height_allowed_is_exact :
  forall N s s', 0 <= N -> set_max_height_allowed N s = (Ok tt, s') ->
    ahh_max_allowed s' = N /\ rch_max_allowed s' = N /\ ahh_max_seen s <= N.
Proof. exact set_max_height_exact. Qed.

Theorem C19_set_max_height_below_seen_is_refused :
  forall N s, st_status s <> Stabilising -> N < ahh_max_seen s ->
    set_max_height_allowed N s = (Panic PSetMaxBelowSeen, s).
Proof. exact set_max_height_below_seen. Qed.

(* from inside a node, fold, bind or cutoff function (status Stabilising) the call is refused with its own diagnostic
   and changes nothing; from an update handler (status RunningOnUpdateHandlers) it is served like a call from top
   level, i.e. the two theorems above apply; a closure's or handler's call is that very function *)
Theorem C19_set_max_height_during_propagation_is_refused :
  forall N s, st_status s = Stabilising -> set_max_height_allowed N s = (Panic PSetMaxDuringStabilise, s).
Proof. exact set_max_height_during_propagation. Qed.

Theorem C19_set_max_height_from_a_closure_is_the_same_call :
  forall fuel arg N, run_effect fuel arg (ESetMaxHeight N) = set_max_height_allowed N.
Proof. exact effect_set_max_height. Qed.

(* stabilise from inside a node function or a handler panics at once and touches nothing; so does a
   further stabilise call on that state *)
Theorem C19_nested_stabilise_panics :
  forall fuel arg s, st_status s <> NotStabilising -> run_effect fuel arg EStabilise s = (Panic PNestedStabilise, s).
Proof. exact nested_stabilise_effect. Qed.

Theorem C19_stabilise_while_stabilising_panics :
  forall fuel s, st_status s <> NotStabilising -> stabilise fuel s = (Panic PNestedStabilise, s).
Proof. exact stabilise_refuses. Qed.

(* when the height-adjusting walk started by a new edge (child -> parent) reaches the child again as a
   parent, it panics naming the cycle (stated for release builds: with debug assertions the two
   is_necessary checks come first) *)
Theorem C19_cycle_is_reported :
  forall oc op child s, debug s = false -> (ensure_height_requirement oc op child oc s).1 = Panic PCycle.
Proof. exact ensure_height_requirement_cycle. Qed.

(* ---- globally: the hypothesis of the theorems above holds in every reachable state.
   [HL s]: the greatest height seen is not negative and within the greatest height allowed, and no node is
   higher than the greatest height seen.  For State::new_with_height(N), N >= 0, it holds after every
   operation of every history (debug or release) up to the first one that does not return normally — and the
   operation that would take a node above the limit is exactly one that does not (C19_height_limit_is_exact). *)
Theorem C19_heights_within_the_limit_in_every_history :
  forall fuel N dbg ops, 0 <= N -> while_ok (run_history fuel N dbg ops) HL.
Proof. exact history_height_limit. Qed.

Theorem C19_every_operation_keeps_heights_within_the_limit :
  forall fuel st o, okp HL (step fuel st o).
Proof. exact hl_step. Qed.

(* non-vacuity: limit 3 admits a chain of height 3 and rejects height 4 at the stabilise that needs it;
   a bind returning a node above itself is reported as a cycle *)
Example C19_nonvacuous_limit :
  let h := [OpVar 1; OpMap 2 [] [0%nat]; OpMap 2 [] [1%nat]; OpObserve 2; OpStabilise; OpRead 0;
            OpMap 2 [] [2%nat]; OpObserve 3; OpStabilise] in
  (fun e => e.1.1) <$> run_history 100 3 true h
  = [Ok (OutNode 0); Ok (OutNode 1); Ok (OutNode 2); Ok (OutObs 0); Ok OutUnit; Ok (OutRead (inl (VInt 4)));
     Ok (OutNode 3); Ok (OutObs 1); Panic PHeightLimit].
Proof. vm_compute. reflexivity. Qed.

Example C19_nonvacuous_cycle :
  let h := [OpVar 1; OpBind 0 (BindFn [] [([], OLate 2)]); OpMap 2 [] [1%nat]; OpObserve 2; OpStabilise] in
  (fun e => e.1.1) <$> run_history 100 128 false h
  = [Ok (OutNode 0); Ok (OutNode 2); Ok (OutNode 3); Ok (OutObs 0); Panic PCycle].
Proof. vm_compute. reflexivity. Qed.

Print Assumptions C19_height_limit_is_exact.
Print Assumptions C19_accepted_height_keeps_the_limit.
Print Assumptions C19_new_with_height.
Print Assumptions C19_set_max_height_allowed_is_exact.
Print Assumptions C19_set_max_height_below_seen_is_refused.
Print Assumptions C19_nested_stabilise_panics.
Print Assumptions C19_stabilise_while_stabilising_panics.
Print Assumptions C19_cycle_is_reported.
Print Assumptions C19_heights_within_the_limit_in_every_history.
Print Assumptions C19_every_operation_keeps_heights_within_the_limit.
Print Assumptions C19_set_max_height_during_propagation_is_refused.
Print Assumptions C19_set_max_height_from_a_closure_is_the_same_call.
