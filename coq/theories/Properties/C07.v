(* C07 — observer values move only at stabilise boundaries.  Statements about the engine model E. *)
From stdpp Require Import base list option numbers.
From Incr.Model Require Import Base Live Engine Api.
From Incr.Proofs Require Import Pres FrameStatus FrameRead Reads Poisoned.

(* [read_result s o] is what try_get_value returns for observer o in state s.
   Any operation of the API other than stabilise — variable writes of all five kinds, node and bind
   construction, new observers, subscriptions, cutoff changes, handle drops, height reconfiguration —
   leaves the read of every observer exactly as it was, except for the one observer the operation
   itself disallows or drops.  (The observer must exist and observe an existing node.)  The
   dependency surgery of the expert API is left out: it belongs inside a stabilisation (debug builds
   refuse it elsewhere), and a release build that invalidates an expert node from top level does
   change reads on the spot. *)
Theorem C07_reads_move_only_at_stabilise :
  forall fuel st op s o ob,
    op <> OpStabilise -> expert_op op = false -> op_target op <> Some o ->
    obss s !! o = Some ob -> is_Some (nodes s !! o_observing ob) ->
    Forall (fun e => read_result e.2 o = read_result s o) (run fuel [op] st s).
Proof. intros * Hns Hne Ht. apply run_reads_frozen; [right|]; repeat constructor; done. Qed.

(* the same over any sequence of operations between two stabilisations: however many writes, new nodes,
   new observers, subscriptions and drops the program performs, in whatever order, the read of an observer
   it does not itself disallow or drop is the one the last stabilise left *)
Theorem C07_reads_constant_between_stabilises :
  forall fuel ops st s o ob,
    Forall (fun op => op <> OpStabilise) ops ->
    Forall (fun op => expert_op op = false /\ op_target op <> Some o) ops ->
    obss s !! o = Some ob -> is_Some (nodes s !! o_observing ob) ->
    Forall (fun e => read_result e.2 o = read_result s o) (run fuel ops st s).
Proof. intros * H. apply run_reads_frozen. by right. Qed.

(* a new observer returns NeverStabilised *)
Theorem C07_new_observer_never_stabilised :
  forall fuel st h s st' o s',
    step fuel st (OpObserve h) s = (Ok (st', OutObs o), s') -> st_status s <> Stabilising ->
    read_result s' o = Ok (inr ERR_NEVER_STABILISED).
Proof. exact observe_read. Qed.

(* from inside a node function (status Stabilising) every read is refused rather than answered
   with a half-updated value; and nothing below stabilise changes the status *)
Theorem C07_read_during_stabilise_is_refused :
  forall o s ob, obss s !! o = Some ob -> st_status s = Stabilising ->
    observer_read o s = (Ok (inr ERR_CURRENTLY_STABILISING), s).
Proof. exact read_refused. Qed.

Theorem C07_status_constant_during_propagation :
  forall fuel s, st_status (stabilise_loop fuel s).2 = st_status s.
Proof. intros fuel s. exact (pres_status _ s (st_stabilise_loop fuel)). Qed.

(* non-vacuity: writes and new nodes between two stabilises do not move the read *)
Example C07_nonvacuous :
  let h := [OpVar 1; OpMap 2 [] [0%nat]; OpObserve 1; OpStabilise; OpRead 0; OpSet 0 5; OpMap 1 [] [0%nat; 1%nat];
            OpObserve 2; OpRead 0; OpRead 1; OpStabilise; OpRead 0; OpRead 1] in
  (fun e => e.1.1) <$> run_history 100 128 true h
  = [Ok (OutNode 0); Ok (OutNode 1); Ok (OutObs 0); Ok OutUnit; Ok (OutRead (inl (VInt 2))); Ok OutUnit;
     Ok (OutNode 2); Ok (OutObs 1); Ok (OutRead (inl (VInt 2))); Ok (OutRead (inr ERR_NEVER_STABILISED));
     Ok OutUnit; Ok (OutRead (inl (VInt 10))); Ok (OutRead (inl (VInt 15)))].
Proof. vm_compute. reflexivity. Qed.

Print Assumptions C07_reads_move_only_at_stabilise.
Print Assumptions C07_new_observer_never_stabilised.
Print Assumptions C07_read_during_stabilise_is_refused.
Print Assumptions C07_status_constant_during_propagation.
Print Assumptions C07_reads_constant_between_stabilises.
