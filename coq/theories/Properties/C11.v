(* C11 — bookkeeping self-consistent at every quiescent point.  Statements about the engine model E.

   Proved here: the clause about the recompute heap, for debug builds, as a true invariant of every
   reachable state — after any sequence of operations whatsoever, including those that panic half-way.
   The other clauses of the audit (edges recorded symmetrically with matching indices, heights above
   the children's, the heap holding exactly the necessary stale nodes, counters) are decided by the
   comparison of the full state with the crate after every operation plus the audit oracle: see
   DESIGN.md. *)
From stdpp Require Import base list option numbers.
From Incr.Model Require Import Base Live Engine Api.
From Incr.Proofs Require Import Pres OkPres Safe RchInv FrameRchInv FrameNoHeapPanic RchMin FrameRchMin Histories Edges HandlerCount.

(* [rch_inv s]: a node occurs in queue h of the recompute heap exactly when its
   height_in_recompute_heap cell says h (so a cell of -1 means "in no queue"), and no queue lists a
   node twice. *)

(* the heap's own operations keep it, whatever their outcome (a refused precondition leaves the heap
   untouched) ... *)
Theorem C11_heap_operations_keep_the_heap_consistent :
  (forall n, pres Rri (rch_insert n)) /\ (forall n, pres Rri (rch_remove n)) /\ pres Rri rch_remove_min
  /\ (forall n, pres Rri (rch_increase_height n)) /\ (forall m, pres Rri (rch_set_max_height_allowed m)).
Proof. exact (conj ri_rch_insert (conj ri_rch_remove (conj ri_rch_remove_min (conj ri_rch_increase_height ri_rch_set_max)))). Qed.

(* ... and so does every operation of the API: in a debug build, from any state satisfying it, every
   state of the rest of the history satisfies it *)
Theorem C11_recompute_heap_consistent_along_every_history :
  forall fuel ops st s, debug s = true -> rch_inv s ->
    Forall (fun e => rch_inv e.2 /\ debug e.2 = true) (run fuel ops st s).
Proof. exact run_rch_inv. Qed.

(* a fresh state satisfies it: the invariant holds in every state a debug-build program can reach *)
Theorem C11_fresh_state_is_consistent :
  forall max_height dbg, rch_inv (init_state max_height dbg).
Proof. exact rch_inv_init. Qed.

(* so: every state of every history of a debug build *)
Theorem C11_recompute_heap_consistent_in_every_history :
  forall fuel max_height ops, Forall (fun e => rch_inv e.2) (run_history fuel max_height true ops).
Proof. exact history_rch_inv. Qed.

(* [rch_extra s]: the heap's length counter equals the number of queued nodes, and every queue below its
   lower bound (`height_lower_bound`) is empty.  Together with rch_inv it holds in every state of every
   history of a debug build, from any state that satisfies both *)
Theorem C11_heap_counter_and_lower_bound_along_every_history :
  forall fuel ops st s, debug s = true -> rch_inv s -> rch_extra s ->
    Forall (fun e => rch_inv e.2 /\ rch_extra e.2 /\ debug e.2 = true) (run fuel ops st s).
Proof. exact run_rch_extra. Qed.

Theorem C11_heap_counter_and_lower_bound_in_every_history :
  forall fuel max_height ops,
    Forall (fun e => rch_inv e.2 /\ rch_extra e.2) (run_history fuel max_height true ops).
Proof. exact history_rch_extra. Qed.

(* ---- the edge arrays, operation by operation.
   [link s c i p ci]: in s, entry i of c's parents vector is p, c's my_child_index_in_parent_at_index[i] is ci
   (not negative), and p's my_parent_index_in_child_at_index[ci] is i — the edge c -> p (p's ci-th child) is
   recorded on both ends with matching indices. *)

(* add_parent records the edge on both ends and disturbs no other link (the slot (p, ci) is the one it takes) *)
Theorem C11_add_parent_links_both_ends :
  forall s c ci p cn pn,
    c <> p -> nodes s !! c = Some cn -> nodes s !! p = Some pn -> (0 <= ci)%Z ->
    exists s', add_parent c ci p s = (Ok tt, s')
      /\ link s' c (length (n_parents cn)) p ci
      /\ forall c' i' p' ci', link s c' i' p' ci' -> (p', ci') <> (p, ci) -> link s' c' i' p' ci'.
Proof. exact add_parent_spec. Qed.

(* remove_parent on the last entry of the child's parents vector: the link is gone, every other link stays *)
Theorem C11_remove_parent_last_entry :
  forall s c i p ci cn,
    nodes s !! c = Some cn -> link s c i p ci -> c <> p -> i = (length (n_parents cn) - 1)%nat ->
    exists s', remove_parent c ci p s = (Ok tt, s')
      /\ (forall i', ~ link s' c i' p ci)
      /\ forall c' i' p' ci', link s c' i' p' ci' -> (c', i') <> (c, i) -> (p', ci') <> (p, ci) -> link s' c' i' p' ci'.
Proof. exact remove_parent_last_spec. Qed.

(* remove_parent on an inner entry (swap_remove): the link is gone, the last entry moves into the hole and its
   parent's index is fixed up, every other link stays where it was *)
Theorem C11_remove_parent_inner_entry :
  forall s c i p ci cn end_p eci en,
    nodes s !! c = Some cn -> link s c i p ci -> c <> p ->
    (i < length (n_parents cn) - 1)%nat ->
    link s c (length (n_parents cn) - 1) end_p eci -> nodes s !! end_p = Some en -> n_live en = true -> end_p <> c ->
    exists s', remove_parent c ci p s = (Ok tt, s')
      /\ (forall i', ~ link s' c i' p ci)
      /\ link s' c i end_p eci
      /\ forall c' i' p' ci', link s c' i' p' ci' -> (c', i') <> (c, i) -> (c', i') <> (c, (length (n_parents cn) - 1)%nat) ->
           (p', ci') <> (p, ci) -> (p', ci') <> (end_p, eci) -> link s' c' i' p' ci'.
Proof. exact remove_parent_moved_spec. Qed.

(* non-vacuity of the premises: after observing a map over two variables and stabilising, both edges are links *)
Example C11_links_exist :
  let h := [OpVar 1; OpVar 2; OpMap 1 [] [0%nat; 1%nat]; OpObserve 2; OpStabilise] in
  match stdpp.list.last (run_history 100 128 true h) with
  | Some (_, _, s) => link s 0 0 2 0 /\ link s 1 0 2 1
  | None => False
  end.
Proof.
  vm_compute. split; (eexists _, _; split_and!; [reflexivity|reflexivity|reflexivity|reflexivity|done|reflexivity]).
Qed.

(* non-vacuity: a history that inserts and pops heap entries, one op panicking *)
Example C11_nonvacuous :
  let h := [OpVar 1; OpMap 2 [] [0%nat]; OpMap 2 [EPanic] [1%nat]; OpObserve 1; OpStabilise; OpSet 0 3; OpObserve 2;
            OpStabilise; OpSet 0 4; OpDropObs 0] in
  (fun e => (e.1.1, concat (rch_queues e.2))) <$> run_history 100 128 true h
  = [(Ok (OutNode 0), []); (Ok (OutNode 1), []); (Ok (OutNode 2), []); (Ok (OutObs 0), []); (Ok OutUnit, []);
     (Ok OutUnit, [0%nat]); (Ok (OutObs 1), [0%nat]); (Panic PInjected, []); (Ok OutUnit, []); (Ok OutUnit, [])].
Proof. vm_compute. reflexivity. Qed.

(* the audit's handler-count clause, as an invariant of whole histories (debug builds, up to the first failing
   operation): every node's num_on_update_handlers equals its own handlers plus those of its linked observers, the
   lists of linked observers are duplicate-free and agree with the observers' states *)
Theorem C11_handler_counts_in_every_history :
  forall fuel max_height ops, while_ok (run_history fuel max_height true ops) HCd.
Proof. exact history_handler_count. Qed.

Print Assumptions C11_heap_operations_keep_the_heap_consistent.
Print Assumptions C11_recompute_heap_consistent_along_every_history.
Print Assumptions C11_fresh_state_is_consistent.
Print Assumptions C11_recompute_heap_consistent_in_every_history.
Print Assumptions C11_heap_counter_and_lower_bound_along_every_history.
Print Assumptions C11_heap_counter_and_lower_bound_in_every_history.
Print Assumptions C11_add_parent_links_both_ends.
Print Assumptions C11_remove_parent_last_entry.
Print Assumptions C11_remove_parent_inner_entry.
Print Assumptions C11_handler_counts_in_every_history.
