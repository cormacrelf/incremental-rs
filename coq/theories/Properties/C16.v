(* C16 — incremental-map per-key graph operators.  Statements about the engine model E
   (Model/Engine.v: zm_diff, perkey_visit, perkey_step — the transcription of the map_cyclic closure
   of incr_filter_mapi_generic in btree_map.rs / im_rc.rs); each closed by [exact].

   The theorems cover the operator's own bookkeeping: which keys one pass visits, and what it
   remembers afterwards.  That the accumulated output equals the per-entry computation after every
   stabilise depends on the whole propagation machinery and is decided by the correspondence run and
   its oracle, not by a theorem: see DESIGN.md. *)
From stdpp Require Import base list option numbers sorting.
From RecordUpdate Require Import RecordUpdate.
From Incr.Model Require Import Base Live Engine Api.
From Incr.Proofs Require Import Pres FramePkPrev PerKey.

(* one pass over the difference between the previous and the new input visits exactly the keys whose
   entry differs — removed (DLeft), added (DRight), changed (DUnequal) — each once, in ascending key
   order, for key-sorted maps of any size.  (C18 proves the same of the real symmetric_fold.) *)
Theorem C16_pass_visits_exactly_the_changed_keys :
  forall a b, zsorted a -> zsorted b ->
    (forall k d, (k, d) ∈ zm_diff a b -> diff_ok a b k d)
    /\ (forall k, zm_get k a <> zm_get k b -> exists d, (k, d) ∈ zm_diff a b)
    /\ StronglySorted (fun x y => (x.1 < y.1)%Z) (zm_diff a b).
Proof. exact zm_diff_spec. Qed.

(* after a successful pass the remembered input is the new input: the next pass diffs against what
   the per-key nodes were last built from *)
Theorem C16_remembered_input_is_the_new_input :
  forall fuel pk new s s',
    perkey_step fuel pk new s = (Ok tt, s') -> exists r, perkeys s' !! pk = Some r /\ pk_prev r = new.
Proof. exact perkey_step_sync. Qed.

(* handling one key (creating its node and calling the user's function, re-wiring, invalidating,
   making stale — with everything that cascades from there) never touches any operator's remembered
   input, whatever its outcome *)
Theorem C16_visiting_a_key_keeps_remembered_inputs :
  forall fuel pk kd, pres Rpk (perkey_visit fuel pk kd).
Proof. exact pk_perkey_visit. Qed.

(* non-vacuity: keys added, changed and removed, and a change of the outer variable every per-key
   computation depends on *)
Example C16_nonvacuous :
  let h := [OpVarMap [(1, 5); (2, 7)]%Z; OpVar 100;
            OpPerMapi 0 None (BindFn [] [([TMap 1 [] [OLocal 1 0; OOuter 1]], OLocal 0 0)]) false;
            OpObserve 2; OpStabilise; OpRead 0;
            OpSetMap 0 [(1, 5); (2, 8); (3, 1)]%Z; OpStabilise; OpRead 0;
            OpSet 1 200; OpStabilise; OpRead 0;
            OpSetMap 0 [(3, 1)]%Z; OpStabilise; OpRead 0] in
  (fun e => e.1.1) <$> run_history 400 128 true h
  = [Ok (OutNode 0); Ok (OutNode 1); Ok (OutNode 5); Ok (OutObs 0); Ok OutUnit;
     Ok (OutRead (inl (VMap [(1, 106); (2, 109)]%Z)));
     Ok OutUnit; Ok OutUnit;
     Ok (OutRead (inl (VMap [(1, 106); (2, 110); (3, 104)]%Z)));
     Ok OutUnit; Ok OutUnit;
     Ok (OutRead (inl (VMap [(1, 206); (2, 210); (3, 204)]%Z)));
     Ok OutUnit; Ok OutUnit; Ok (OutRead (inl (VMap [(3, 204)]%Z)))].
Proof. vm_compute. reflexivity. Qed.

Print Assumptions C16_pass_visits_exactly_the_changed_keys.
Print Assumptions C16_remembered_input_is_the_new_input.
Print Assumptions C16_visiting_a_key_keeps_remembered_inputs.
