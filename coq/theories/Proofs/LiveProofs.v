(* C12: the ownership abstraction.  [live_set] is what a reference-counting heap keeps. *)
From stdpp Require Import base list list_numbers option numbers.
From RecordUpdate Require Import RecordUpdate.
From Incr.Model Require Import Base Live.

Lemma filter_sublist' {A} (P : A -> Prop) `{forall x, Decision (P x)} (l : list A) : sublist (filter P l) l.
Proof.
  induction l as [|x l IH]; [done|]. rewrite filter_cons. destruct (decide (P x)).
  - by apply sublist_skip.
  - by apply sublist_cons.
Qed.

Lemma sublist_same_length {A} (l1 l2 : list A) : sublist l1 l2 -> length l1 = length l2 -> l1 = l2.
Proof.
  induction 1 as [|x l1 l2 H IH|x l1 l2 H IH]; simpl; intros Hl; [done| |].
  - f_equal. apply IH. lia.
  - apply sublist_length in H. lia.
Qed.

Section fixpoint.
Context (s : state) (rts : list obj).

Definition referenced (cur : list obj) : list obj := rts ++ concat (out_edges s <$> cur).
Definition step_live (cur : list obj) : list obj := filter (fun x => x ∈ referenced cur) cur.

Lemma elem_of_referenced cur x :
  x ∈ referenced cur <-> x ∈ rts \/ exists y, y ∈ cur /\ x ∈ out_edges s y.
Proof.
  unfold referenced. rewrite elem_of_app, (elem_of_list_In (concat _)), in_concat.
  setoid_rewrite <-elem_of_list_In. setoid_rewrite elem_of_list_fmap. naive_solver.
Qed.

Lemma live_fix_unfold fuel cur :
  live_fix (S fuel) s rts cur =
    if bool_decide (length (step_live cur) = length cur) then cur else live_fix fuel s rts (step_live cur).
Proof. done. Qed.

Lemma step_live_sublist cur : sublist (step_live cur) cur.
Proof. apply filter_sublist'. Qed.

Lemma live_fix_sublist fuel : forall cur, sublist (live_fix fuel s rts cur) cur.
Proof.
  induction fuel as [|f IH]; intros cur; [done|]. rewrite live_fix_unfold.
  case_bool_decide; [done|]. etrans; [apply IH|apply step_live_sublist].
Qed.

Lemma live_fix_subseteq fuel cur : live_fix fuel s rts cur ⊆ cur.
Proof. intros x Hx. eapply elem_of_submseteq, sublist_submseteq, live_fix_sublist. done. Qed.

(* with enough fuel the result is a fixpoint of one refinement step *)
Lemma live_fix_stable fuel : forall cur, length cur < fuel ->
  step_live (live_fix fuel s rts cur) = live_fix fuel s rts cur.
Proof.
  induction fuel as [|f IH]; intros cur Hlen; [lia|]. rewrite live_fix_unfold.
  case_bool_decide as Hl.
  - apply sublist_same_length; [apply step_live_sublist|done].
  - apply IH. pose proof (sublist_length _ _ (step_live_sublist cur)). lia.
Qed.

(* whatever fuel, a candidate that the result references is never thrown out: every set it was
   filtered from contains the result, so references it too *)
Lemma live_fix_closed fuel : forall cur x,
  x ∈ referenced (live_fix fuel s rts cur) -> x ∈ cur -> x ∈ live_fix fuel s rts cur.
Proof.
  induction fuel as [|f IH]; intros cur x Hr Hx; [done|]. rewrite live_fix_unfold in *.
  case_bool_decide; [done|]. apply IH; [done|]. apply elem_of_list_filter. split; [|done].
  apply elem_of_referenced in Hr as [?|(y & Hy%live_fix_subseteq%elem_of_list_filter & ?)];
    apply elem_of_referenced; naive_solver.
Qed.
End fixpoint.

Definition allocated (s : state) : list obj := filter (fun x => obj_live s x = true) (all_objs s).

Lemma live_set_eq s pins : live_set s pins = live_fix (S (length (allocated s))) s (roots s pins) (allocated s).
Proof. done. Qed.

(* nothing leaks, nothing dangles: the objects kept are the allocated ones that are a root or
   referenced by an object that is kept *)
Lemma elem_of_live_set s pins x :
  x ∈ live_set s pins <-> x ∈ allocated s /\ x ∈ referenced s (roots s pins) (live_set s pins).
Proof.
  rewrite live_set_eq. split; [|intros []; by apply live_fix_closed].
  intros Hx. split; [by eapply live_fix_subseteq|].
  rewrite <-live_fix_stable in Hx by lia. by apply elem_of_list_filter in Hx as [? _].
Qed.

Lemma elem_of_allocated s x : x ∈ allocated s <-> obj_live s x = true.
Proof.
  unfold allocated, all_objs. rewrite elem_of_list_filter, !elem_of_app, !elem_of_list_fmap.
  setoid_rewrite elem_of_seq. split; [tauto|]. intros H. split; [done|].
  destruct x as [n|b|v|o]; simpl in *; [left|right; left|right; right; left|right; right; right];
    eexists; (split; [done|]); (split; [lia|]); apply lookup_lt_is_Some; by destruct (_ !! _).
Qed.

(* ---- [collect] writes exactly that set into the allocation flags *)
Lemma obj_live_collect s pins x :
  obj_live (collect pins s).2 x = (obj_live s x && bool_decide (x ∈ live_set s pins)).
Proof.
  destruct x as [n|b|v|o]; simpl; rewrite list_lookup_imap; (destruct (_ !! _); [|done]);
    case_bool_decide; simpl; by rewrite ?andb_true_r, ?andb_false_r.
Qed.

Lemma collect_live_iff s pins x :
  obj_live (collect pins s).2 x = true <-> x ∈ live_set s pins.
Proof.
  rewrite obj_live_collect, andb_true_iff, bool_decide_eq_true, elem_of_live_set, elem_of_allocated. tauto.
Qed.

(* collect changes nothing but allocation flags: in particular not who references whom *)
Lemma out_edges_collect s pins x : out_edges (collect pins s).2 x = out_edges s x.
Proof.
  destruct x as [n|b|v|o]; simpl; rewrite list_lookup_imap; (destruct (_ !! _); [|done]);
    by case_bool_decide.
Qed.

(* after a collection: no allocated object holds a strong reference to an object that this collection
   released *)
Lemma collect_no_dangling s pins x y :
  obj_live (collect pins s).2 y = true -> x ∈ out_edges (collect pins s).2 y ->
  obj_live s x = true -> obj_live (collect pins s).2 x = true.
Proof.
  rewrite !collect_live_iff, out_edges_collect, (elem_of_live_set _ _ x), elem_of_referenced, elem_of_allocated.
  eauto.
Qed.

(* after a collection: every allocated object is held by the program (a handle, the state's own
   containers, a pinned local) or by another allocated object — nothing else survives *)
Lemma collect_no_leak s pins x :
  obj_live (collect pins s).2 x = true ->
  x ∈ roots s pins \/ exists y, obj_live (collect pins s).2 y = true /\ x ∈ out_edges (collect pins s).2 y.
Proof.
  setoid_rewrite collect_live_iff. setoid_rewrite out_edges_collect.
  rewrite elem_of_live_set, elem_of_referenced. tauto.
Qed.

(* whatever the program still holds stays allocated *)
Lemma collect_keeps_roots s pins x :
  x ∈ roots s pins -> obj_live s x = true -> obj_live (collect pins s).2 x = true.
Proof. rewrite collect_live_iff, elem_of_live_set, elem_of_referenced, elem_of_allocated. eauto. Qed.
