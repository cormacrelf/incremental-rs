(* C11 / C02: the recompute heap's counter and lower bound, and what remove_min returns.

   On top of rch_inv (Proofs/RchInv.v) two more facts hold in every reachable state of a debug build:
   the length counter equals the number of queued nodes, and every queue below `height_lower_bound` is
   empty.  With them, remove_min returns a node whose height in the heap is minimal among all queued
   nodes: nodes are released in height order. *)
From stdpp Require Import base list option numbers.
From RecordUpdate Require Import RecordUpdate.
From Incr.Model Require Import Base Live Engine Api.
From Incr.Proofs Require Import Pres RchInv.

Definition qtotal (qs : list (list nid)) : Z := Z.of_nat (length (concat qs)).

Lemma qtotal_insert qs i q q' : qs !! i = Some q ->
  qtotal (<[i := q']> qs) = (qtotal qs - Z.of_nat (length q) + Z.of_nat (length q'))%Z.
Proof.
  intros Hq. unfold qtotal. pose proof (lookup_lt_Some _ _ _ Hq) as Hlt.
  rewrite insert_take_drop by done. rewrite <- (take_drop_middle qs i q Hq) at 3.
  rewrite !concat_app, !concat_cons, !app_length. lia.
Qed.


Lemma qtotal_zero_all_nil qs h q : qtotal qs = 0%Z -> qs !! h = Some q -> q = [].
Proof.
  unfold qtotal. intros H Hq. assert (concat qs = []) as Hc by (apply length_zero_iff_nil; lia).
  rewrite <- (take_drop_middle qs h q Hq) in Hc. rewrite concat_app, concat_cons in Hc.
  apply app_eq_nil in Hc as [_ Hc]. by apply app_eq_nil in Hc as [Hc _].
Qed.

Definition rch_extra (s : state) : Prop :=
  rch_len s = qtotal (rch_queues s)
  /\ (forall h q, rch_queues s !! h = Some q -> (Z.of_nat h < rch_lower s)%Z -> q = []).

Lemma bound_moved_extra s s' : bound_moved s s' -> rch_extra s -> rch_extra s'.
Proof.
  intros (_ & Hq & Hl & _ & Hb) [A B]. unfold rch_extra. rewrite Hl, Hq. split; [done|].
  intros h q Hh Hlt. destruct (Hb h q Hh Hlt); [by eapply B|done].
Qed.

(* queue h changes from q to q'; the bound does not go up, and is not above h if q was empty *)
Lemma rch_extra_set s s' h q q' : rch_extra s -> rch_queues s !! h = Some q ->
  rch_queues s' = <[h := q']> (rch_queues s) ->
  rch_len s' = (rch_len s - Z.of_nat (length q) + Z.of_nat (length q'))%Z ->
  (rch_lower s' <= rch_lower s)%Z -> (q = [] -> (rch_lower s' <= Z.of_nat h)%Z) -> rch_extra s'.
Proof.
  intros [A B] Hq Hqs Hl Hlow Hh. unfold rch_extra. rewrite Hqs, Hl, (qtotal_insert _ _ _ _ Hq). split; [lia|].
  intros h' q0 [(<- & _)|[_ Hq0]]%list_lookup_insert_Some Hlt; [|eapply B; [done|lia]].
  assert (q = []) as -> by (eapply B; [done|lia]). specialize (Hh eq_refl). lia.
Qed.

Definition Rrx : relation state := fun s s' =>
  debug s = true -> rch_inv s -> rch_extra s -> rch_inv s' /\ rch_extra s' /\ debug s' = true.
Global Instance Rrx_preorder : PreOrder Rrx.
Proof.
  split; [intros s Hd Hi Hx; done|]. intros a b c H1 H2 Hd Hi Hx.
  destruct (H1 Hd Hi Hx) as (Hb & Hxb & Hdb). by apply H2.
Qed.

Lemma Rrx_of s s' : Rri s s' -> rch_len s' = rch_len s -> rch_queues s' = rch_queues s -> rch_lower s' = rch_lower s -> Rrx s s'.
Proof.
  intros R H1 H2 H3 Hd Hi Hx. destruct (R Hd Hi) as [Hi' Hd']. split_and!; [done| |done].
  unfold rch_extra. by rewrite H1, H2, H3.
Qed.
Lemma Rrx_moved s s' : bound_moved s s' -> Rrx s s'.
Proof.
  intros Hm Hd Hi Hx. split_and!; [by eapply bound_moved_inv|by eapply bound_moved_extra|].
  destruct Hm as (_ & _ & _ & -> & _). done.
Qed.
Lemma pres_Rrx {A} (m : M A) :
  pres Rri m -> (forall s, debug s = true -> rch_extra s -> rch_extra (m s).2) -> pres Rrx m.
Proof. intros Hp Hx s Hd Hi He. destruct (Hp s Hd Hi). split_and!; [done|by apply Hx|done]. Qed.

Lemma rx_rch_insert n : pres Rrx (rch_insert n).
Proof.
  apply pres_Rrx; [apply ri_rch_insert|]. intros s Hd Hx.
  destruct (rch_insert_spec n s Hd) as (s1 & Hm%bound_moved_extra & [(x & q & _ & _ & _ & H0 & Hlow & Hq & ->)|(t & -> & _)]);
    [|done..].
  eapply (rch_extra_set s1); [done..|simpl; rewrite app_length; simpl; lia|done|simpl; lia].
Qed.

Lemma rx_rch_remove n : pres Rrx (rch_remove n).
Proof.
  apply pres_Rrx; [apply ri_rch_remove|]. intros s Hd Hx.
  destruct (rch_remove_spec n s Hd) as [(x & q & i & _ & _ & Hq & Hi & ->)|(t & -> & _)]; [|done].
  eapply (rch_extra_set s); [done..|simpl; rewrite (swap_remove_length q i n Hi); lia|done|by intros ->].
Qed.

Lemma rx_rch_increase_height n : pres Rrx (rch_increase_height n).
Proof.
  apply pres_Rrx; [apply ri_rch_increase_height|]. intros s Hd Hx.
  destruct (rch_increase_height_spec n s Hd) as [(x & q & i & q' & _ & Hpos & Hq & Hi & Hq' & ->)|(t & -> & _)]; [|done].
  (* the queue it leaves is not below the bound *)
  assert (rch_lower s <= n_height_in_rch x)%Z as Hlow.
  { destruct (decide (rch_lower s <= n_height_in_rch x)%Z); [done|]. destruct Hx as [_ B].
    rewrite (B _ _ Hq) in Hi by lia. done. }
  eapply (rch_extra_set (s <| rch_queues := _ |> <| rch_len := (rch_len s - 1)%Z |>));
    [|exact Hq'|done|simpl; rewrite app_length; simpl; lia|simpl; lia|simpl; lia].
  eapply (rch_extra_set s); [done..|simpl; rewrite (swap_remove_length q i n Hi); lia|done|by intros ->].
Qed.

Lemma rx_rch_set_max m : pres Rrx (rch_set_max_height_allowed m).
Proof.
  apply pres_Rrx; [apply ri_rch_set_max|]. intros s Hd [A B].
  destruct (rch_set_max_spec m s Hd) as [[Hemp ->]| ->]; [|done]. split; simpl.
  - rewrite A. unfold qtotal, resize. f_equal. rewrite <- (take_drop (Z.to_nat (m + 1)) (rch_queues s)) at 1.
    rewrite !concat_app, !app_length, (proj2 (concat_nil_Forall _) Hemp), (proj2 (concat_nil_Forall (replicate _ _))); [done|].
    by apply Forall_replicate.
  - intros h q Hq Hlt. destruct q as [|n q]; [done|]. apply resize_lookup_nil in Hq; [|done..]. eapply B; [done|lia].
Qed.

Lemma rx_rch_remove_min : pres Rrx rch_remove_min.
Proof.
  apply pres_Rrx; [apply ri_rch_remove_min|]. intros s Hd Hx.
  destruct (rch_remove_min_spec s Hd) as (s2 & Hm & H). pose proof (bound_moved_extra _ _ Hm Hx) as Hx2.
  destruct Hm as (_ & Hq2 & _). destruct H as [(n & q' & Hlow & Hq & ->)|(r & -> & _)]; [|done]. rewrite <- Hq2 in Hq.
  eapply (rch_extra_set s2); [done..|simpl; lia|done|done].
Qed.

(* raise_min_height and min_height move the bound only *)
Lemma rch_raise_moved fuel : forall s r s', rch_raise fuel s = (r, s') -> bound_moved s s'.
Proof.
  induction fuel as [|f IH]; intros s r s' E; [injection E as _ <-; apply bound_moved_refl|].
  cbn [rch_raise] in E. rewrite bind_get in E.
  destruct (zget _ _) as [[|n q]|] eqn:Hq; [|injection E as _ <-; apply bound_moved_refl..].
  rewrite bind_modify in E. by eapply bound_moved_up, IH.
Qed.

Lemma rx_rch_raise fuel : pres Rrx (rch_raise fuel).
Proof. intros s. destruct (rch_raise fuel s) as [r s'] eqn:E. by eapply Rrx_moved, rch_raise_moved. Qed.

Lemma rx_rch_min_height : pres Rrx rch_min_height.
Proof.
  intros s. unfold rch_min_height. rewrite bind_get. case_bool_decide as Hlen.
  - intros Hd Hi Hx. refine (Rrx_moved s _ _ Hd Hi Hx). split_and!; [done..|]. intros h q Hq _. right.
    eapply qtotal_zero_all_nil; [|done]. by destruct Hx as [<- _].
  - unfold bindM. destruct (rch_raise _ s) as [r s1] eqn:E. apply rch_raise_moved, Rrx_moved in E. by destruct r.
Qed.

Lemma rch_extra_init max_height dbg : rch_extra (init_state max_height dbg).
Proof.
  unfold init_state. split; simpl.
  - unfold qtotal. rewrite (proj2 (concat_nil_Forall _)); [done|]. by apply Forall_replicate.
  - intros h q Hq _. by apply lookup_replicate in Hq as [-> _].
Qed.

(* ---- what remove_min returns, when it returns a node: a queued node of minimal height *)
Lemma rch_remove_min_is_min s r s' :
  debug s = true -> rch_inv s -> rch_extra s ->
  rch_remove_min s = (Ok r, s') ->
  match r with
  | Some n => exists x, nodes s !! n = Some x /\ (0 <= n_height_in_rch x)%Z
                /\ forall m y, nodes s !! m = Some y -> (0 <= n_height_in_rch y)%Z ->
                     (n_height_in_rch x <= n_height_in_rch y)%Z
  | None => True
  end.
Proof.
  intros Hd (I1 & I2 & _) Hex E.
  destruct (rch_remove_min_spec s Hd) as (s2 & Hm & [(n & q' & Hlow & Hq & E')|(r' & E' & Hr & _)]);
    rewrite E' in E; simplify_eq; [|destruct r; [by destruct (Hr n)|done]].
  destruct (bound_moved_extra _ _ Hm Hex) as [_ B]. destruct Hm as (_ & Hq2 & _).
  destruct (I1 _ _ n Hq) as (x & Hx & Hh); [by left|]. exists x. split_and!; [done|lia|].
  intros m y Hy Hpos. destruct (I2 _ _ Hy Hpos) as (qm & Hqm & Hin).
  destruct (decide (n_height_in_rch x <= n_height_in_rch y)%Z); [done|].
  rewrite <- Hq2 in Hqm. rewrite (B _ _ Hqm) in Hin by lia. by apply elem_of_nil in Hin.
Qed.
