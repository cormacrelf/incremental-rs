(* The iterators of incremental-map's symmetric_fold.rs yield their specifications: the sorted union of
   two key streams, the ordered merge, and the symmetric diff, which is the merge with equal pairs dropped. *)
From stdpp Require Import base list option numbers sorting.
From Incr.Model Require Import SymDiff.
From Incr.Proofs Require Import SortedMaps.

(* spec of MergeOnce: sorted union, ties once *)
Fixpoint merge_keys (a : list Z) : list Z -> list Z :=
  fix go (b : list Z) : list Z :=
  match a, b with
  | [], _ => b
  | _, [] => a
  | x :: a', y :: b' =>
      if bool_decide (x < y)%Z then x :: merge_keys a' b
      else if bool_decide (y < x)%Z then y :: go b'
      else x :: merge_keys a' b'
  end.

Lemma merge_keys_nil_r a : merge_keys a [] = a.
Proof. by destruct a. Qed.
Lemma merge_keys_nil_l b : merge_keys [] b = b.
Proof. by destruct b. Qed.

Lemma merge_keys_cons_l x a b : Forall (Z.lt x) b -> merge_keys (x :: a) b = x :: merge_keys a b.
Proof.
  destruct b; simpl; [by rewrite merge_keys_nil_r|].
  intros [? _]%Forall_cons. by rewrite bool_decide_eq_true_2.
Qed.
Lemma merge_keys_cons_r y a b : Forall (Z.lt y) a -> merge_keys a (y :: b) = y :: merge_keys a b.
Proof.
  destruct a; simpl; [by rewrite merge_keys_nil_l|].
  intros [? _]%Forall_cons. by rewrite bool_decide_eq_false_2, bool_decide_eq_true_2 by lia.
Qed.
Lemma merge_keys_cons_both x a b : merge_keys (x :: a) (x :: b) = x :: merge_keys a b.
Proof. simpl. by rewrite bool_decide_eq_false_2 by lia. Qed.

Lemma merge_keys_elem a : forall b k, k ∈ merge_keys a b <-> k ∈ a \/ k ∈ b.
Proof.
  induction a as [|x a IHa]; intros b k.
  - rewrite merge_keys_nil_l, elem_of_nil. tauto.
  - induction b as [|y b IHb]; [rewrite merge_keys_nil_r, elem_of_nil; tauto|].
    simpl. repeat case_bool_decide; rewrite !elem_of_cons, ?IHa, ?IHb, ?elem_of_cons; try tauto.
    assert (x = y) as -> by lia. tauto.
Qed.

Lemma Forall_merge_keys (P : Z -> Prop) a b : Forall P a -> Forall P b -> Forall P (merge_keys a b).
Proof. rewrite !Forall_forall. intros Ha Hb k [?|?]%merge_keys_elem; auto. Qed.

Lemma merge_keys_sorted a : forall b, StronglySorted Z.lt a -> StronglySorted Z.lt b ->
  StronglySorted Z.lt (merge_keys a b).
Proof.
  induction a as [|x a IHa]; intros b Ha Hb; [by rewrite merge_keys_nil_l|].
  induction b as [|y b IHb]; [done|].
  pose proof Ha as [Ha' Hx]%StronglySorted_inv. pose proof Hb as [Hb' Hy]%StronglySorted_inv.
  simpl. repeat case_bool_decide.
  - constructor; [by apply IHa|]. apply Forall_merge_keys; [done|by apply Forall_lt_cons].
  - constructor; [by apply IHb|]. apply (Forall_merge_keys _ (x :: a)); [by apply Forall_lt_cons|done].
  - assert (x = y) as -> by lia. constructor; [by apply IHa|by apply Forall_merge_keys].
Qed.

(* All four iterators are collected by the same loop: a state invariant, a measure that each [next]
   decreases, and the list still to be produced, of which [next] yields the head. *)
Lemma collect_spec {St X} (next : St -> option (option (X * St))) (collect : nat -> St -> option (list X))
    (ok : St -> Prop) (len : St -> nat) (rest : St -> list X) :
  (forall n s, collect (S n) s =
     match next s with
     | None => None
     | Some None => Some []
     | Some (Some (x, s')) => (x ::.) <$> collect n s'
     end) ->
  (forall s, ok s ->
     match next s with
     | None => False
     | Some None => rest s = []
     | Some (Some (x, s')) => ok s' /\ len s' < len s /\ rest s = x :: rest s'
     end) ->
  forall n s, ok s -> len s < n -> collect n s = Some (rest s).
Proof.
  intros Hcollect Hnext. induction n as [|n IH]; intros s Hok Hlen; [lia|].
  rewrite Hcollect. specialize (Hnext s Hok).
  destruct (next s) as [[[x s']|]|]; [|by rewrite Hnext|done].
  destruct Hnext as (? & ? & ->). rewrite IH; [done|done|lia].
Qed.

(* the merge iterators fuse once a side has run out: from then on only the other side is read *)
Definition fused_inv {A B} (fused : option bool) (a : list A) (b : list B) : Prop :=
  match fused with
  | None => True
  | Some true => b = []
  | Some false => a = []
  end.

Definition fused_ok (s : mo) : Prop := fused_inv (mo_fused s) (mo_a s) (mo_b s).

Definition mo_len (s : mo) : nat := length (mo_a s) + length (mo_b s).
Definition mo_rest (s : mo) : list Z := merge_keys (mo_a s) (mo_b s).

Lemma mo_next_spec s : fused_ok s ->
  match mo_next s with
  | None => mo_rest s = []
  | Some (k, s') => fused_ok s' /\ mo_len s' < mo_len s /\ mo_rest s = k :: mo_rest s'
  end.
Proof.
  destruct s as [a b fu]. unfold fused_ok, fused_inv, mo_next, mo_len, mo_rest. simpl. intros Hok.
  destruct fu as [[|]|], a as [|x a'], b as [|y b']; simplify_eq; simpl;
    rewrite ?merge_keys_nil_r, ?merge_keys_nil_l; try (split_and?; done || lia).
  repeat case_bool_decide; simpl; split_and?; done || lia.
Qed.

Theorem merge_once_correct a b :
  StronglySorted Z.lt a -> StronglySorted Z.lt b ->
  exists out, mo_collect (S (length a + length b)) (MO a b None) = Some out
    /\ StronglySorted Z.lt out /\ (forall k, k ∈ out <-> k ∈ a \/ k ∈ b).
Proof.
  intros Ha Hb. exists (merge_keys a b). split; [|split].
  - apply (collect_spec (fun s => Some (mo_next s)) mo_collect fused_ok mo_len mo_rest);
      [done|apply mo_next_spec|done|unfold mo_len; simpl; lia].
  - by apply merge_keys_sorted.
  - apply merge_keys_elem.
Qed.

Section mow.
Context {L R : Type}.

Definition mow_fused_ok (s : @mow L R) : Prop := fused_inv (mow_fused s) (mow_a s) (mow_b s).
Definition mow_len (s : @mow L R) : nat := length (mow_a s) + length (mow_b s).
Definition mow_rest (s : @mow L R) := merge_spec (mow_a s) (mow_b s).

Lemma merge_spec_nil_r (a : list (Z * L)) : merge_spec a ([] : list (Z * R)) = MLeft <$> a.
Proof. by destruct a as [|[??]?]. Qed.

Lemma merge_spec_nil_l (b : list (Z * R)) : merge_spec ([] : list (Z * L)) b = MRight <$> b.
Proof. by destruct b. Qed.

Lemma mow_next_spec s : mow_fused_ok s ->
  match mow_next s with
  | None => mow_rest s = []
  | Some (x, s') => mow_fused_ok s' /\ mow_len s' < mow_len s /\ mow_rest s = x :: mow_rest s'
  end.
Proof.
  destruct s as [a b fu]. unfold mow_fused_ok, fused_inv, mow_len, mow_rest, mow_next. cbn -[merge_spec]. intros Hok.
  destruct fu as [[|]|], a as [|[ka x] a'], b as [|[kb y] b']; simplify_eq; cbn -[merge_spec];
    rewrite ?merge_spec_nil_r, ?merge_spec_nil_l; try (split_and?; done || lia).
  cbn [merge_spec].
  destruct (Z.compare_spec ka kb); repeat case_bool_decide; try lia; cbn -[merge_spec];
    split_and!; done || lia.
Qed.

Theorem merge_once_with_correct (a : list (Z * L)) (b : list (Z * R)) :
  merge_once_with a b = Some (merge_spec a b).
Proof.
  apply (collect_spec (fun s => Some (mow_next s)) mow_collect mow_fused_ok mow_len mow_rest);
    [done|apply mow_next_spec|done|unfold mow_len; simpl; lia].
Qed.

(* what merge_spec contains: key-wise pairing, in global key order *)
Definition merge_at (a : list (Z * L)) (b : list (Z * R)) (k : Z)
  : option (merge_elem (Z * L) (Z * R)) :=
  match assoc_get a k, assoc_get b k with
  | Some x, Some y => Some (MBoth (k, x) (k, y))
  | Some x, None => Some (MLeft (k, x))
  | None, Some y => Some (MRight (k, y))
  | None, None => None
  end.

(* reading [merge_at] along the merged keys: a head key below all others is settled by the head entries *)
Lemma merge_at_drop_l a b k0 v l : Forall (Z.lt k0) l ->
  omap (merge_at ((k0, v) :: a) b) l = omap (merge_at a b) l.
Proof.
  intros Hl. apply list_omap_ext, Forall_Forall2_diag. eapply Forall_impl; [done|].
  intros k ?. unfold merge_at. by rewrite get_cons_ne by lia.
Qed.
Lemma merge_at_drop_r a b k0 v l : Forall (Z.lt k0) l ->
  omap (merge_at a ((k0, v) :: b)) l = omap (merge_at a b) l.
Proof.
  intros Hl. apply list_omap_ext, Forall_Forall2_diag. eapply Forall_impl; [done|].
  intros k ?. unfold merge_at. by rewrite get_cons_ne by lia.
Qed.

Lemma merge_at_cons_l k v a b : Forall (Z.lt k) (keys a) -> Forall (Z.lt k) (keys b) ->
  omap (merge_at ((k, v) :: a) b) (merge_keys (keys ((k, v) :: a)) (keys b))
  = MLeft (k, v) :: omap (merge_at a b) (merge_keys (keys a) (keys b)).
Proof.
  intros Ha Hb. change (keys ((k, v) :: a)) with (k :: keys a).
  rewrite merge_keys_cons_l, omap_cons, merge_at_drop_l by (done || by apply Forall_merge_keys).
  unfold merge_at at 1. by rewrite get_head, (get_lt_None b).
Qed.
Lemma merge_at_cons_r k v a b : Forall (Z.lt k) (keys a) -> Forall (Z.lt k) (keys b) ->
  omap (merge_at a ((k, v) :: b)) (merge_keys (keys a) (keys ((k, v) :: b)))
  = MRight (k, v) :: omap (merge_at a b) (merge_keys (keys a) (keys b)).
Proof.
  intros Ha Hb. change (keys ((k, v) :: b)) with (k :: keys b).
  rewrite merge_keys_cons_r, omap_cons, merge_at_drop_r by (done || by apply Forall_merge_keys).
  unfold merge_at at 1. by rewrite get_head, (get_lt_None a).
Qed.
Lemma merge_at_cons_both k v w a b : Forall (Z.lt k) (keys a) -> Forall (Z.lt k) (keys b) ->
  omap (merge_at ((k, v) :: a) ((k, w) :: b)) (merge_keys (keys ((k, v) :: a)) (keys ((k, w) :: b)))
  = MBoth (k, v) (k, w) :: omap (merge_at a b) (merge_keys (keys a) (keys b)).
Proof.
  intros Ha Hb. change (keys ((k, v) :: a)) with (k :: keys a). change (keys ((k, w) :: b)) with (k :: keys b).
  rewrite merge_keys_cons_both, omap_cons, merge_at_drop_l, merge_at_drop_r by (by apply Forall_merge_keys).
  unfold merge_at at 1. by rewrite !get_head.
Qed.

Lemma omap_merge_spec (a : list (Z * L)) (b : list (Z * R)) : smap a -> smap b ->
  omap (merge_at a b) (merge_keys (keys a) (keys b)) = merge_spec a b.
Proof.
  revert b. induction a as [|[ka va] a IHa]; intros b; induction b as [|[kb vb] b IHb];
    intros Ha Hb; [done|..].
  - apply smap_cons_inv in Hb as [??]. rewrite merge_at_cons_r by (done || constructor).
    by rewrite IHb, !merge_spec_nil_l.
  - apply smap_cons_inv in Ha as [??]. rewrite merge_at_cons_l by (done || constructor).
    by rewrite IHa, !merge_spec_nil_r.
  - pose proof Ha as [? Hka]%smap_cons_inv. pose proof Hb as [? Hkb]%smap_cons_inv.
    cbn [merge_spec]. case_bool_decide; [|case_bool_decide].
    + rewrite merge_at_cons_l by (done || by apply Forall_lt_cons). by rewrite IHa.
    + rewrite merge_at_cons_r by (done || by apply Forall_lt_cons). by rewrite IHb.
    + assert (ka = kb) as -> by lia. by rewrite merge_at_cons_both, IHa by done.
Qed.

Lemma merge_at_key a b k x : merge_at a b k = Some x -> merge_elem_key x = k.
Proof. unfold merge_at. repeat case_match; naive_solver. Qed.

Lemma merge_at_is_Some a b k : is_Some (merge_at a b k) <-> k ∈ keys a \/ k ∈ keys b.
Proof.
  rewrite <-!get_is_Some. unfold merge_at, is_Some.
  destruct (assoc_get a k), (assoc_get b k); naive_solver.
Qed.

Lemma merge_spec_elem (a : list (Z * L)) (b : list (Z * R)) x : smap a -> smap b ->
  x ∈ merge_spec a b <-> merge_at a b (merge_elem_key x) = Some x.
Proof.
  intros Ha Hb. rewrite <-omap_merge_spec by done. rewrite elem_of_list_omap. split.
  - intros (k' & Hk' & Hd). pose proof (merge_at_key _ _ _ _ Hd). by subst.
  - intros Hd. eexists. split; [|done]. apply merge_keys_elem, merge_at_is_Some. eauto.
Qed.

Lemma merge_spec_sorted (a : list (Z * L)) (b : list (Z * R)) : smap a -> smap b ->
  StronglySorted Z.lt (merge_elem_key <$> merge_spec a b).
Proof.
  intros Ha Hb. rewrite <-omap_merge_spec by done.
  apply (sorted_omap id); [intros ??; apply merge_at_key|].
  rewrite list_fmap_id. by apply merge_keys_sorted.
Qed.

Lemma merge_spec_keys (a : list (Z * L)) (b : list (Z * R)) k : smap a -> smap b ->
  k ∈ merge_elem_key <$> merge_spec a b <-> k ∈ keys a \/ k ∈ keys b.
Proof.
  intros Ha Hb. rewrite <-merge_at_is_Some, elem_of_list_fmap. split.
  - intros (x & -> & Hx%merge_spec_elem); eauto.
  - intros [x Hx]. pose proof (merge_at_key _ _ _ _ Hx) as <-. exists x. split; [done|].
    by apply merge_spec_elem.
Qed.
End mow.

Section values.
Context {V : Type} `{EqDecision V}.
Implicit Types a b : list (Z * V).

(* what the diff says about one key *)
Definition diff_at a b (k : Z) : option (Z * diff_elem V) :=
  match assoc_get a k, assoc_get b k with
  | Some x, Some y => if bool_decide (x = y) then None else Some (k, DUnequal x y)
  | Some x, None => Some (k, DLeft x)
  | None, Some y => Some (k, DRight y)
  | None, None => None
  end.

(* the name under which the theorems of C15, C17 and C18 assume [smap] *)
Definition sorted_map (a : list (Z * V)) : Prop := StronglySorted Z.lt (keys a).

Lemma diff_at_key a b k x : diff_at a b k = Some x -> x.1 = k.
Proof. unfold diff_at. repeat case_match; naive_solver. Qed.

Lemma diff_at_Some_covered a b k x : diff_at a b k = Some x -> k ∈ keys a \/ k ∈ keys b.
Proof. rewrite <-!get_is_Some. unfold diff_at. repeat case_match; naive_solver. Qed.

(* every key still to come is a key of one of the maps, so the iterator's `_ => return None` arm
   is never taken *)
Definition sd_ok (s : @sd V) : Prop :=
  fused_ok (sd_keys s)
  /\ Forall (fun k => is_Some (assoc_get (sd_self s) k) \/ is_Some (assoc_get (sd_other s) k))
       (mo_rest (sd_keys s)).
Definition sd_rest (s : @sd V) : list (Z * diff_elem V) :=
  omap (diff_at (sd_self s) (sd_other s)) (mo_rest (sd_keys s)).

Lemma sd_next_spec fuel : forall s, sd_ok s -> mo_len (sd_keys s) < fuel ->
  match sd_next fuel s with
  | None => False
  | Some None => sd_rest s = []
  | Some (Some (x, s')) => sd_ok s' /\ mo_len (sd_keys s') < mo_len (sd_keys s) /\ sd_rest s = x :: sd_rest s'
  end.
Proof.
  unfold sd_ok, sd_rest, diff_at.
  induction fuel as [|fuel IH]; intros [a b ks] [Hok Hcov] Hlen; [lia|].
  simpl in *. pose proof (mo_next_spec ks Hok) as Hn.
  destruct (mo_next ks) as [[k ks']|]; [|by rewrite Hn].
  destruct Hn as (Hok' & Hl & Hmk). rewrite Hmk in Hcov |- *. apply Forall_cons in Hcov as [Hk Hcov].
  rewrite omap_cons.
  destruct (assoc_get a k) as [x|], (assoc_get b k) as [y|]; [case_bool_decide|..]; try done.
  - specialize (IH (SD a b ks') (conj Hok' Hcov) ltac:(simpl; lia)).
    destruct (sd_next fuel (SD a b ks')) as [[[x' s']|]|]; [|done..].
    destruct IH as (? & ? & ?). simpl in *. split; [done|]. split; [lia|done].
  - by destruct Hk as [[]|[]].
Qed.

Lemma diff_spec_nil_r a : diff_spec a [] = (λ kv, (kv.1, DLeft kv.2)) <$> a.
Proof. by destruct a as [|[??]?]. Qed.
Lemma diff_spec_nil_l b : diff_spec [] b = (λ kv, (kv.1, DRight kv.2)) <$> b.
Proof. by destruct b. Qed.

(* the diff is the ordered merge with equal pairs dropped *)
Definition diff_of (x : merge_elem (Z * V) (Z * V)) : option (Z * diff_elem V) :=
  match x with
  | MLeft (k, v) => Some (k, DLeft v)
  | MRight (k, v) => Some (k, DRight v)
  | MBoth (k, v) (_, w) => if bool_decide (v = w) then None else Some (k, DUnequal v w)
  end.

Lemma diff_spec_merge a b : diff_spec a b = omap diff_of (merge_spec a b).
Proof.
  revert b. induction a as [|[ka va] a IHa]; intros b; induction b as [|[kb vb] b IHb]; [done|..].
  - rewrite diff_spec_nil_l, merge_spec_nil_l in *. csimpl. by rewrite IHb.
  - specialize (IHa []). rewrite diff_spec_nil_r, merge_spec_nil_r in *. csimpl. by rewrite IHa.
  - cbn [diff_spec merge_spec]. case_bool_decide; [|case_bool_decide]; rewrite omap_cons; cbn [diff_of].
    + by rewrite IHa.
    + f_equal. apply IHb.
    + rewrite IHa. by case_bool_decide.
Qed.

Lemma omap_diff_spec a b : smap a -> smap b ->
  omap (diff_at a b) (merge_keys (keys a) (keys b)) = diff_spec a b.
Proof.
  intros Ha Hb. rewrite diff_spec_merge, <-omap_merge_spec, omap_omap by done.
  apply list_omap_ext, Forall_Forall2_diag, Forall_true. intros k.
  unfold diff_at, merge_at. by destruct (assoc_get a k), (assoc_get b k).
Qed.

Theorem symmetric_diff_correct a b : sorted_map a -> sorted_map b ->
  symmetric_diff a b = Some (diff_spec a b).
Proof.
  intros Ha Hb. rewrite <-omap_diff_spec by done.
  apply (collect_spec (fun s => sd_next (sd_fuel s) s) sd_collect sd_ok (fun s => mo_len (sd_keys s)) sd_rest).
  - done.
  - intros s Hs. apply sd_next_spec; [done|unfold sd_fuel, mo_len; lia].
  - split; [done|]. apply Forall_merge_keys; apply Forall_forall; intros k Hk; [left|right];
      by apply get_is_Some.
  - unfold mo_len. simpl. unfold keys. rewrite !fmap_length. lia.
Qed.

Lemma diff_spec_elem a b k e : smap a -> smap b ->
  (k, e) ∈ diff_spec a b <-> diff_at a b k = Some (k, e).
Proof.
  intros Ha Hb. rewrite <-omap_diff_spec by done. rewrite elem_of_list_omap. split.
  - intros (k' & Hk' & Hd). pose proof (diff_at_key _ _ _ _ Hd). simpl in *. by subst.
  - intros Hd. exists k. split; [|done]. apply merge_keys_elem. by eapply diff_at_Some_covered.
Qed.

Lemma diff_spec_sorted a b : smap a -> smap b -> smap (diff_spec a b).
Proof.
  intros Ha Hb. rewrite <-omap_diff_spec by done.
  apply (sorted_omap id); [intros ??; apply diff_at_key|].
  rewrite list_fmap_id. by apply merge_keys_sorted.
Qed.

Definition old_data (d : diff_elem V) : option V :=
  match d with DLeft l => Some l | DRight _ => None | DUnequal l _ => Some l end.

(* The diff, read as a map from keys to elements, against the two maps it was taken of. *)
Lemma diff_sides a b k : smap a -> smap b ->
  match assoc_get (diff_spec a b) k with
  | Some e => assoc_get a k = old_data e /\ assoc_get b k = new_data e /\ assoc_get a k ≠ assoc_get b k
  | None => assoc_get a k = assoc_get b k
  end.
Proof.
  intros Ha Hb. rewrite <-omap_diff_spec, get_omap by (done || apply diff_at_key).
  case_bool_decide as Hk; unfold diff_at.
  - destruct (assoc_get a k), (assoc_get b k); try case_bool_decide; simpl; split_and?; congruence.
  - rewrite merge_keys_elem, <-!get_is_Some in Hk.
    destruct (assoc_get a k), (assoc_get b k); try done; exfalso; apply Hk; eauto.
Qed.

Lemma diff_spec_refl a : smap a -> diff_spec a a = [].
Proof.
  intros Ha. destruct (diff_spec a a) as [|[k e] l] eqn:E; [done|].
  pose proof (diff_sides a a k Ha Ha) as H. rewrite E, get_head in H. by destruct H as (_ & _ & ?).
Qed.

Lemma diff_spec_nil_inv a b : smap a -> smap b -> diff_spec a b = [] -> a = b.
Proof.
  intros Ha Hb E. apply smap_ext; [done..|]. intros k.
  pose proof (diff_sides a b k Ha Hb) as H. by rewrite E in H.
Qed.

Definition own (x : Z * diff_elem V) : diff_elem (Z * V) :=
  match x.2 with
  | DLeft v => DLeft (x.1, v) | DRight v => DRight (x.1, v)
  | DUnequal v w => DUnequal (x.1, v) (x.1, w)
  end.

Definition sdo_fused_ok (s : @sdo V) : Prop := fused_inv (sdo_fused s) (sdo_self s) (sdo_other s).
Definition sdo_len (s : @sdo V) : nat := length (sdo_self s) + length (sdo_other s).
Definition sdo_rest (s : @sdo V) : list (diff_elem (Z * V)) := own <$> diff_spec (sdo_self s) (sdo_other s).

Lemma sdo_next_spec fuel : forall s, sdo_fused_ok s -> sdo_len s < fuel ->
  match sdo_next fuel s with
  | None => False
  | Some None => sdo_rest s = []
  | Some (Some (x, s')) => sdo_fused_ok s' /\ sdo_len s' < sdo_len s /\ sdo_rest s = x :: sdo_rest s'
  end.
Proof.
  unfold sdo_fused_ok, fused_inv, sdo_len, sdo_rest.
  induction fuel as [|fuel IH]; intros [a b fu] Hok Hlen; [lia|].
  cbn -[diff_spec] in *.
  destruct fu as [[|]|], a as [|[ka va] a'], b as [|[kb vb] b']; simplify_eq; cbn -[diff_spec];
    rewrite ?diff_spec_nil_r, ?diff_spec_nil_l; try (split_and?; done || (simpl; lia)).
  cbn [diff_spec]. repeat case_bool_decide; try (split_and?; done || (simpl; lia)).
  - specialize (IH (SDO a' b' None) I ltac:(simpl in *; lia)). cbn -[diff_spec] in IH.
    destruct (sdo_next fuel (SDO a' b' None)) as [[[x s']|]|]; [|done..].
    destruct IH as (? & ? & ?). split_and!; [done|simpl; lia|done].
  - assert (ka = kb) as -> by lia. split_and!; done || (simpl; lia).
Qed.

Theorem symmetric_diff_owned_correct a b :
  symmetric_diff_owned a b = Some (own <$> diff_spec a b).
Proof.
  apply (collect_spec (fun s => sdo_next (S (sdo_len s)) s) sdo_collect sdo_fused_ok sdo_len sdo_rest).
  - done.
  - intros s Hs. apply sdo_next_spec; [done|lia].
  - done.
  - unfold sdo_len. simpl. lia.
Qed.

End values.
