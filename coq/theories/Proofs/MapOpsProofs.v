(* C15 / C17: the diff-based operators of incremental-map equal their plain definitions, and call the
   user function only on changed keys. *)
From stdpp Require Import base list option numbers sorting.
From Incr.Model Require Import SymDiff MapOps.
From Incr.Proofs Require Import SortedMaps SymDiffProofs.

(* A step function that computes [F] of its input, from nothing as well as from an old pair that is
   in sync, computes it along any sequence of inputs (hence across unobserved periods: the node
   then simply sees a subsequence). *)
Section wo_run.
Context {T R C : Type} (step : option (T * R) -> T -> option (R * bool * C)).
Context (ok : T -> Prop) (F : T -> R).

Definition in_sync (st : wo_state T R) : Prop :=
  match wo_old_input st, wo_value st with
  | Some i, Some o => ok i /\ o = F i
  | _, _ => True
  end.

Lemma wo_run_correct :
  (forall i, ok i -> exists ch c, step None i = Some (F i, ch, c)) ->
  (forall i0 i, ok i0 -> ok i -> exists ch c, step (Some (i0, F i0)) i = Some (F i, ch, c)) ->
  forall ins st, Forall ok ins -> in_sync st ->
  exists outs, wo_run step st ins = Some outs /\ Forall2 (fun i o => o.1.1 = F i) ins outs.
Proof.
  intros Hinit Hstep ins st Hs. revert st. induction Hs as [|i ins Hi _ IH]; intros st Hst.
  - by exists [].
  - assert (exists ch c, wo_call step st i = Some (WO (Some i) (Some (F i)), ch, c)) as (ch & c & Hcall).
    { unfold wo_call. destruct st as [[i0|] [o|]]; simpl in *;
        [destruct Hst as [? ->]; destruct (Hstep i0 i) as (ch & c & ->)
        |destruct (Hinit i) as (ch & c & ->)..]; by eauto. }
    destruct (IH (WO (Some i) (Some (F i)))) as (outs & Houts & HF); [done|].
    cbn [wo_run]. rewrite Hcall. simpl. rewrite Houts. simpl. eexists. split; [done|]. by constructor.
Qed.
End wo_run.

Section diff_fold.
Context {V : Type} `{EqDecision V}.

(* The induction principle for folds over a symmetric diff: an invariant relating the part of the
   diff applied so far, the map patched so far and the accumulator is carried from the old map to
   the new one, each element being applied at a moment when the patched map still holds the old
   side of that key. *)
Lemma diff_fold_ind {Acc} (P : list (Z * diff_elem V) -> list (Z * V) -> Acc -> Prop)
    (step : Acc -> Z * diff_elem V -> Acc) (a b : list (Z * V)) acc0 :
  smap a -> smap b ->
  (forall p cur acc x, smap cur -> P p cur acc -> assoc_get cur x.1 = old_data x.2 ->
     P (p ++ [x]) (m_set x.1 (new_data x.2) cur) (step acc x)) ->
  P [] a acc0 -> P (diff_spec a b) b (foldl step acc0 (diff_spec a b)).
Proof.
  intros Ha Hb Hstep.
  (* the part [d] still to be applied is, read as a map, the diff of the patched map and [b] *)
  cut (forall d p cur acc, smap d -> smap cur ->
    (forall k, match assoc_get d k with
               | Some e => assoc_get cur k = old_data e /\ assoc_get b k = new_data e /\ assoc_get cur k ≠ assoc_get b k
               | None => assoc_get cur k = assoc_get b k
               end) ->
    P p cur acc -> P (p ++ d) b (foldl step acc d)).
  { intros Hgen. apply (Hgen _ [] a); [by apply diff_spec_sorted|done|]. intros k. by apply diff_sides. }
  induction d as [|[k0 e0] d IH]; intros p cur acc Hd Hc Hside HP; simpl.
  - by rewrite app_nil_r, <-(smap_ext cur b).
  - apply smap_cons_inv in Hd as [Hd Hk0]. rewrite cons_middle, app_assoc.
    pose proof (Hside k0) as H0. rewrite get_head in H0. destruct H0 as (Ho & Hn & _).
    apply (IH _ (m_set k0 (new_data e0) cur)); [done|by apply smap_set| |by apply (Hstep _ _ _ (k0, e0))].
    intros k. rewrite get_set by done. specialize (Hside k). case_bool_decide as Hk.
    + subst k. by rewrite (get_lt_None d).
    + rewrite get_cons_ne in Hside; [done|congruence].
Qed.
End diff_fold.

Section filter_mapi.
Context {V V2 : Type} `{EqDecision V}.
Variable f : Z -> V -> option V2.

Lemma fmc_cons k v (m : list (Z * V)) :
  filter_map_collect f ((k, v) :: m) =
    match f k v with Some v2 => (k, v2) :: filter_map_collect f m | None => filter_map_collect f m end.
Proof. unfold filter_map_collect. simpl. by destruct (f k v). Qed.

Lemma fmc_sorted (m : list (Z * V)) : smap m -> smap (filter_map_collect f m).
Proof.
  apply (sorted_omap fst fst). by intros [k v] y (v2 & _ & ->)%fmap_Some.
Qed.

Lemma get_fmc (m : list (Z * V)) k : smap m ->
  assoc_get (filter_map_collect f m) k = assoc_get m k ≫= f k.
Proof.
  induction m as [|[k' v] m IH]; intros Hs; [done|].
  apply smap_cons_inv in Hs as [Hs Hl]. rewrite fmc_cons. simpl.
  case_bool_decide as Hk.
  - subst k'. destruct (f k v) eqn:E; simpl.
    + by rewrite bool_decide_eq_true_2.
    + by rewrite IH, get_lt_None.
  - destruct (f k' v); simpl; [rewrite bool_decide_eq_false_2 by done|]; by apply IH.
Qed.

Lemma fmc_set (m : list (Z * V)) k o : smap m ->
  filter_map_collect f (m_set k o m) = m_set k (o ≫= f k) (filter_map_collect f m).
Proof.
  intros Hs. apply smap_ext; [by apply fmc_sorted, smap_set|by apply smap_set, fmc_sorted|].
  intros j. rewrite get_fmc, !get_set, get_fmc by (done || by apply smap_set || by apply fmc_sorted).
  case_bool_decide; by subst.
Qed.

(* keys on which the user function is called for a diff: the added and the changed ones *)
Definition fm_called (d : list (Z * diff_elem V)) : list Z :=
  omap (fun x => match x.2 with DLeft _ => None | _ => Some x.1 end) d.

Lemma fm_fold_correct a b calls0 : smap a -> smap b ->
  foldl (fm_apply f) (filter_map_collect f a, calls0) (diff_spec a b)
  = (filter_map_collect f b, calls0 ++ fm_called (diff_spec a b)).
Proof.
  intros Ha Hb.
  apply (diff_fold_ind (fun p cur acc => acc = (filter_map_collect f cur, calls0 ++ fm_called p)));
    [done..| |by rewrite app_nil_r].
  intros p cur _ [k e] Hs -> _. unfold fm_called. rewrite fmc_set, omap_app, app_assoc by done.
  destruct e as [v|v|v w]; simpl; [by rewrite app_nil_r|by destruct (f k v)|by destruct (f k w)].
Qed.

(* C15: one recompute of incr_filter_mapi, from an old pair that is in sync, yields the plain
   filter-map of the new input *)
Theorem fm_step_correct old_in old_out input :
  smap old_in -> smap input -> old_out = filter_map_collect f old_in ->
  exists ch calls, fm_step f (Some (old_in, old_out)) input = Some (filter_map_collect f input, ch, calls)
    /\ (ch = false -> filter_map_collect f input = old_out).
Proof.
  intros Ha Hb ->. unfold fm_step. destruct (length input); [by do 2 eexists|].
  rewrite symmetric_diff_correct by done. simpl. rewrite fm_fold_correct by done.
  do 2 eexists. split; [done|].
  intros Hch%bool_decide_eq_false%dec_stable. f_equal. symmetry. by apply diff_spec_nil_inv.
Qed.

Theorem fm_step_initial input :
  fm_step f None input = Some (filter_map_collect f input, true, keys input).
Proof. unfold fm_step. by destruct (length input). Qed.

(* C17: apart from the initial / emptying step, the user function is called exactly on the keys that
   were added or whose value changed — each once, in key order *)
Theorem fm_step_calls old_in input n :
  smap old_in -> smap input -> length input = S n ->
  exists out ch, fm_step f (Some (old_in, filter_map_collect f old_in)) input = Some (out, ch, fm_called (diff_spec old_in input))
    /\ StronglySorted Z.lt (fm_called (diff_spec old_in input))
    /\ forall k, k ∈ fm_called (diff_spec old_in input) ->
         assoc_get old_in k <> assoc_get input k /\ is_Some (assoc_get input k).
Proof.
  intros Ha Hb El. unfold fm_step. rewrite El, symmetric_diff_correct by done. simpl.
  rewrite fm_fold_correct by done. simpl. do 2 eexists. split; [done|]. split.
  - rewrite <-(list_fmap_id (fm_called _)). apply (sorted_omap fst id); [|by apply diff_spec_sorted].
    intros [k e] y Hy. destruct e; by simplify_eq/=.
  - intros k ([k' e] & Hin & Hk)%elem_of_list_omap. apply elem_get in Hin; [|by apply diff_spec_sorted].
    pose proof (diff_sides old_in input k' Ha Hb) as H. rewrite Hin in H. destruct H as (_ & Hn & Hne).
    destruct e; simplify_eq/=; split; [done| |done|]; rewrite Hn; by eauto.
Qed.

(* over any sequence of inputs every output is the plain filter-map of that input *)
Theorem fm_seq_correct ins st :
  Forall smap ins -> in_sync smap (filter_map_collect f) st ->
  exists outs, wo_run (fm_step f) st ins = Some outs
    /\ Forall2 (fun i o => o.1.1 = filter_map_collect f i) ins outs.
Proof.
  apply wo_run_correct.
  - intros i _. rewrite fm_step_initial. by eauto.
  - intros i0 i H0 Hi. destruct (fm_step_correct i0 _ i H0 Hi eq_refl) as (ch & c & -> & _). by eauto.
Qed.
End filter_mapi.

Section unordered_fold.
Context {V R : Type} `{EqDecision V}.
Variable add : R -> Z -> V -> R.
Variable remove : R -> Z -> V -> R.
Variable update : option (R -> Z -> V -> V -> R).
Variable revert : bool.
Variable init : R.

(* "an invertible add/remove": remove undoes add, and adds of different keys commute *)
Hypothesis remove_add : forall acc k v, remove (add acc k v) k v = acc.
Hypothesis add_comm : forall acc k v k' v', k <> k' -> add (add acc k v) k' v' = add (add acc k' v') k v.
(* an explicit update function must agree with remove-then-add *)
Hypothesis update_spec : forall u, update = Some u -> forall acc k v v', u acc k v v' = add (remove acc k v) k v'.

Definition addf (acc : R) (kv : Z * V) : R := add acc kv.1 kv.2.
Definition FOLD (m : list (Z * V)) : R := foldl addf init m.

Lemma fold_add_comm acc k v (m : list (Z * V)) : assoc_get m k = None ->
  foldl addf (add acc k v) m = add (foldl addf acc m) k v.
Proof.
  revert acc. induction m as [|[k' v'] m IH]; intros acc Hk; [done|]. simpl in *.
  case_bool_decide; [done|]. unfold addf at 2 4. simpl. by rewrite add_comm, IH.
Qed.

Lemma fold_insert acc k v (m : list (Z * V)) : assoc_get m k = None ->
  foldl addf acc (m_insert k v m) = add (foldl addf acc m) k v.
Proof.
  revert acc. induction m as [|[k' v'] m IH]; intros acc Hk; [done|]. simpl.
  case_bool_decide; [by apply (fold_add_comm _ _ _ ((k', v') :: m))|].
  simpl in Hk. case_bool_decide; [done|]. rewrite bool_decide_eq_false_2 by done. simpl. by rewrite IH.
Qed.

Lemma fold_remove (m : list (Z * V)) k v : smap m -> assoc_get m k = Some v ->
  FOLD (m_remove k m) = remove (FOLD m) k v.
Proof.
  intros Hs Hg. unfold FOLD. rewrite <-(insert_remove_same m k v Hs Hg) at 2.
  by rewrite fold_insert, remove_add by (by rewrite get_remove, bool_decide_eq_true_2).
Qed.

Definition uf_called (d : list (Z * diff_elem V)) : list (uf_role * Z) :=
  d ≫= (fun x => match x.2 with
                 | DLeft _ => [(RRemove, x.1)]
                 | DRight _ => [(RAdd, x.1)]
                 | DUnequal _ _ => match update with Some _ => [(RUpdate, x.1)] | None => [(RRemove, x.1); (RAdd, x.1)] end
                 end).

Lemma uf_fold_correct a b c0 : smap a -> smap b ->
  foldl (uf_apply add remove update) (FOLD a, c0) (diff_spec a b) = (FOLD b, c0 ++ uf_called (diff_spec a b)).
Proof.
  intros Ha Hb.
  apply (diff_fold_ind (fun p cur acc => acc = (FOLD cur, c0 ++ uf_called p))); [done..| |by rewrite app_nil_r].
  intros p cur _ [k e] Hs -> Hold. unfold uf_called. rewrite bind_app, app_assoc. simpl in *.
  rewrite app_nil_r. destruct e as [v|v|v w]; simpl in *.
  - by rewrite (fold_remove cur k v).
  - unfold FOLD. by rewrite fold_insert.
  - rewrite insert_replace by done. unfold FOLD.
    rewrite fold_insert by (by rewrite get_remove, bool_decide_eq_true_2).
    fold (FOLD (m_remove k cur)). rewrite (fold_remove cur k v) by done.
    destruct update as [u|] eqn:Eu; simpl; [by rewrite (update_spec u)|done].
Qed.

(* against the empty map every key is an addition: the initial fold *)
Lemma uf_fold_adds acc c (m : list (Z * V)) :
  (foldl (uf_apply add remove update) (acc, c) (diff_spec [] m)).1 = foldl addf acc m.
Proof.
  rewrite diff_spec_nil_l. revert acc c. induction m as [|[k v] m IH]; intros acc c; [done|]. apply IH.
Qed.

(* C15: one recompute of incr_unordered_fold from an old pair in sync yields the fold of the new map *)
Theorem uf_step_correct old_in new_in :
  smap old_in -> smap new_in ->
  exists ch calls, uf_step add remove update revert init (Some (old_in, FOLD old_in)) new_in = Some (FOLD new_in, ch, calls)
    /\ (ch = false -> FOLD new_in = FOLD old_in).
Proof.
  intros Ha Hb. unfold uf_step. destruct (revert && bool_decide (length new_in = 0%nat)) eqn:Er.
  - apply andb_true_iff in Er as [_ Hl%bool_decide_eq_true]. destruct new_in; [|done].
    do 2 eexists. split; [done|]. intros Hch%negb_false_iff%bool_decide_eq_true. by destruct old_in.
  - rewrite symmetric_diff_correct by done. simpl. rewrite uf_fold_correct by done.
    do 2 eexists. split; [done|].
    intros Hch%bool_decide_eq_false%dec_stable. f_equal. symmetry. by apply diff_spec_nil_inv.
Qed.

Theorem uf_step_initial new_in :
  uf_step add remove update revert init None new_in = Some (FOLD new_in, true, (fun k => (RAdd, k)) <$> keys new_in).
Proof. done. Qed.

(* C17: the add/remove/update functions are called only for keys whose presence or value differs *)
Theorem uf_calls_on_changed_keys a b : smap a -> smap b ->
  forall r k, (r, k) ∈ uf_called (diff_spec a b) -> assoc_get a k <> assoc_get b k.
Proof.
  intros Ha Hb r k ([k' e] & Hin & Hd)%elem_of_list_bind.
  assert (k = k') as ->.
  { clear update_spec. destruct e; simpl in Hin; try destruct update; decompose_elem_of_list; by simplify_eq. }
  apply elem_get in Hd; [|by apply diff_spec_sorted].
  pose proof (diff_sides a b k' Ha Hb) as H. rewrite Hd in H. by destruct H as (_ & _ & ?).
Qed.

Theorem uf_seq_correct ins st :
  Forall smap ins -> in_sync smap FOLD st ->
  exists outs, wo_run (uf_step add remove update revert init) st ins = Some outs
    /\ Forall2 (fun i o => o.1.1 = FOLD i) ins outs.
Proof.
  apply wo_run_correct.
  - intros i _. rewrite uf_step_initial. by eauto.
  - intros i0 i H0 Hi. destruct (uf_step_correct i0 i H0 Hi) as (ch & c & -> & _). by eauto.
Qed.
End unordered_fold.

Section partition.
Context {V A B : Type} `{EqDecision V}.
Variable f : Z -> V -> either A B.

Definition fl (k : Z) (v : V) : option A := match f k v with ELeft a => Some a | ERight _ => None end.
Definition fr (k : Z) (v : V) : option B := match f k v with ELeft _ => None | ERight b => Some b end.
Definition PART (m : list (Z * V)) : list (Z * A) * list (Z * B) :=
  (filter_map_collect fl m, filter_map_collect fr m).

Lemma pt_add_spec cur k (v : V) : smap cur -> assoc_get cur k = None ->
  pt_add f (PART cur) k v = PART (m_insert k v cur).
Proof.
  intros Hs Hg. unfold pt_add, PART. rewrite !(fmc_set _ cur k (Some v)) by done. simpl.
  unfold fl, fr. destruct (f k v); simpl; f_equal; symmetry; apply remove_absent; by rewrite get_fmc, Hg.
Qed.

Lemma pt_remove_spec cur k (v : V) : smap cur -> pt_remove (PART cur) k v = PART (m_remove k cur).
Proof. intros Hs. unfold PART. by rewrite !(fmc_set _ cur k None). Qed.

Lemma pt_update_spec cur k (v w : V) : smap cur -> pt_update f (PART cur) k v w = PART (m_insert k w cur).
Proof.
  intros Hs. unfold pt_update, PART. rewrite !(fmc_set _ cur k (Some w)) by done. simpl.
  unfold fl, fr. by destruct (f k w).
Qed.

Lemma pt_fold a b c : smap a -> smap b ->
  (foldl (uf_apply (pt_add f) pt_remove (Some (pt_update f))) (PART a, c) (diff_spec a b)).1 = PART b.
Proof.
  intros Ha Hb. apply (diff_fold_ind (fun _ cur acc => acc.1 = PART cur)); [done..| |done].
  intros _ cur [lr calls] [k e] Hs Hacc Hold. simpl in *. subst lr.
  destruct e; simpl in *; [by apply pt_remove_spec|by apply pt_add_spec|by apply pt_update_spec].
Qed.

(* C15: incr_partition_mapi, from an old pair in sync *)
Theorem pt_step_correct old_in new_in :
  smap old_in -> smap new_in ->
  exists ch calls, pt_step f (Some (old_in, PART old_in)) new_in = Some (PART new_in, ch, calls).
Proof.
  intros Ha Hb. unfold pt_step, uf_step. cbn [andb].
  case_bool_decide as Hl; [destruct new_in; [|done]; by eauto|].
  rewrite symmetric_diff_correct by done. simpl.
  pose proof (pt_fold old_in new_in [] Ha Hb) as H.
  destruct (foldl _ _ _) as [o c]. simpl in H. subst. by eauto.
Qed.

Theorem pt_step_initial new_in : smap new_in ->
  exists calls, pt_step f None new_in = Some (PART new_in, true, calls).
Proof.
  intros Hs. unfold pt_step, uf_step. rewrite <-(pt_fold [] new_in []) by (done || constructor).
  rewrite uf_fold_adds. by eexists.
Qed.
End partition.

Section merge.
Context {V1 V2 R : Type} `{EqDecision V1} `{EqDecision V2}.
Variable f : Z -> merge_elem V1 V2 -> option R.

Definition merge_elem_of (x : option V1) (y : option V2) : option (merge_elem V1 V2) :=
  match x, y with
  | Some a, Some b => Some (MBoth a b)
  | Some a, None => Some (MLeft a)
  | None, Some b => Some (MRight b)
  | None, None => None
  end.

(* the plain definition: key-wise merge of two maps *)
Definition merged_at (l : list (Z * V1)) (r : list (Z * V2)) (k : Z) : option R :=
  merge_elem_of (assoc_get l k) (assoc_get r k) ≫= f k.
Definition MERGE (l : list (Z * V1)) (r : list (Z * V2)) : list (Z * R) :=
  omap (fun k => (fun v => (k, v)) <$> merged_at l r k) (merge_keys (keys l) (keys r)).

Lemma MERGE_sorted l r : smap l -> smap r -> smap (MERGE l r).
Proof.
  intros Hl Hr. apply (sorted_omap id fst); [by intros k y (v & _ & ->)%fmap_Some|].
  rewrite list_fmap_id. by apply merge_keys_sorted.
Qed.

Lemma get_MERGE l r k : assoc_get (MERGE l r) k = merged_at l r k.
Proof.
  unfold MERGE. rewrite get_omap by (by intros ?? (v & _ & ->)%fmap_Some).
  case_bool_decide as Hin; [by destruct (merged_at l r k)|].
  rewrite merge_keys_elem, <-!get_is_Some in Hin. unfold merged_at.
  destruct (assoc_get l k), (assoc_get r k); try done; exfalso; apply Hin; eauto.
Qed.

(* One application of the merge closure sets the output at its key to the merge of the new maps,
   for the elements of a merge of two diffs. *)
Lemma mg_apply_set ol or nl nr out calls x : smap ol -> smap or -> smap nl -> smap nr ->
  x ∈ merge_spec (diff_spec ol nl) (diff_spec or nr) ->
  (mg_apply f nl nr (out, calls) x).1
  = m_set (merge_elem_key x) (merged_at nl nr (merge_elem_key x)) out.
Proof.
  intros Hol Hor Hnl Hnr Hx%merge_spec_elem; [|by apply diff_spec_sorted..].
  remember (merge_elem_key x) as k eqn:Ek. clear Ek.
  pose proof (diff_sides ol nl k Hol Hnl) as H1. pose proof (diff_sides or nr k Hor Hnr) as H2.
  unfold merge_at in Hx. unfold mg_apply, merged_at.
  destruct (assoc_get (diff_spec ol nl) k) as [e1|], (assoc_get (diff_spec or nr) k) as [e2|];
    simplify_eq; simpl; try destruct H1 as (_ & -> & _); try destruct H2 as (_ & -> & _).
  - destruct (new_data e1), (new_data e2); simpl; try destruct (f k _); done.
  - destruct (new_data e1), (assoc_get nr k); simpl; try destruct (f k _); done.
  - destruct (assoc_get nl k), (new_data e2); simpl; try destruct (f k _); done.
Qed.

Lemma mg_fold ol or nl nr l : smap ol -> smap or -> smap nl -> smap nr ->
  (forall x, x ∈ l -> x ∈ merge_spec (diff_spec ol nl) (diff_spec or nr)) ->
  forall out calls, smap out ->
  smap (foldl (mg_apply f nl nr) (out, calls) l).1
  /\ forall j, assoc_get (foldl (mg_apply f nl nr) (out, calls) l).1 j
                = if bool_decide (j ∈ merge_elem_key <$> l) then merged_at nl nr j else assoc_get out j.
Proof.
  intros Hol Hor Hnl Hnr. induction l as [|x l IH]; intros Hsub out calls Hs; [done|].
  cbn [foldl fmap list_fmap].
  pose proof (mg_apply_set ol or nl nr out calls x Hol Hor Hnl Hnr) as E.
  destruct (mg_apply f nl nr (out, calls) x) as [o c]. simpl in E. rewrite E by (apply Hsub; left).
  destruct (IH (fun y Hy => Hsub y (elem_of_list_further _ _ _ Hy))
              (m_set (merge_elem_key x) (merged_at nl nr (merge_elem_key x)) out) c) as [S G];
    [by apply smap_set|].
  split; [done|]. intros j. rewrite G, get_set by done.
  destruct (decide (j = merge_elem_key x)) as [->|].
  - rewrite (bool_decide_eq_true_2 (_ ∈ _ :: _)) by left. by repeat case_bool_decide.
  - rewrite (bool_decide_ext (j ∈ merge_elem_key x :: (merge_elem_key <$> l)) (j ∈ merge_elem_key <$> l))
      by (rewrite elem_of_cons; tauto).
    by rewrite (bool_decide_eq_false_2 (j = _)).
Qed.

(* C15: one recompute of incr_merge from an old triple in sync yields the key-wise merge of the new maps *)
Theorem mg_step_correct ol or nl nr :
  smap ol -> smap or -> smap nl -> smap nr ->
  exists ch calls, mg_step f (Some ((ol, or), MERGE ol or)) (nl, nr) = Some (MERGE nl nr, ch, calls).
Proof.
  intros Hol Hor Hnl Hnr. unfold mg_step.
  rewrite !symmetric_diff_correct by done. simpl. rewrite merge_once_with_correct. simpl.
  set (m := merge_spec (diff_spec ol nl) (diff_spec or nr)).
  destruct (mg_fold ol or nl nr m Hol Hor Hnl Hnr (fun _ H => H) (MERGE ol or) []) as [S G];
    [by apply MERGE_sorted|].
  destruct (foldl (mg_apply f nl nr) _ m) as [o c]. simpl in S, G.
  assert (o = MERGE nl nr) as ->; [|by eauto].
  apply smap_ext; [done|by apply MERGE_sorted|]. intros j. rewrite G, !get_MERGE.
  case_bool_decide as Hj; [done|].
  (* a key in neither diff has the same entries in the old and new maps *)
  unfold m in Hj. rewrite merge_spec_keys, <-!get_is_Some in Hj by (by apply diff_spec_sorted).
  pose proof (diff_sides ol nl j Hol Hnl) as H1. pose proof (diff_sides or nr j Hor Hnr) as H2.
  destruct (assoc_get (diff_spec ol nl) j); [exfalso; eauto|].
  destruct (assoc_get (diff_spec or nr) j); [exfalso; eauto|].
  unfold merged_at. by rewrite H1, H2.
Qed.

Theorem mg_step_initial nl nr : smap nl -> smap nr ->
  exists ch calls, mg_step f None (nl, nr) = Some (MERGE nl nr, ch, calls).
Proof. intros Hnl Hnr. exact (mg_step_correct [] [] nl nr smap_nil smap_nil Hnl Hnr). Qed.
End merge.
