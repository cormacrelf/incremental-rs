(* C20: memoised functions (weak_memoize_fn). *)
From stdpp Require Import base list option numbers.
From RecordUpdate Require Import RecordUpdate.
From Incr.Model Require Import Base Live Engine Api.
From Incr.Proofs Require Import Pres Steps FrameScope.

Lemma ro_scope_is_valid sc : ro (scope_is_valid sc).
Proof. destruct sc; unfold scope_is_valid, get_bind, get_node; repeat logic_step ltac:(exact I). Qed.

Lemma Qsc_set_scope s sc : sc ∈ in_play s -> Qsc s (s <| cur_scope := sc |>).
Proof.
  intros Hsc. unfold Qsc, in_play, memo_scopes. simpl. split_and!; try done.
  - intros sc' H. by right.
  - intros i x Hx. exists x. done.
  - intros i x' Hi Hx. apply lookup_lt_Some in Hx. lia.
Qed.
Lemma Qsc_restore s s2 : Qsc s s2 -> Qsc s (s2 <| cur_scope := cur_scope s |>).
Proof. intros (P&M&C&L&O&N&E). unfold Qsc. simpl. split_and!; try done. by left. Qed.

(* what [within_scope] does, for every outcome *)
Lemma within_scope_run {A} sc (f : M A) s :
  within_scope sc f s =
  match (scope_is_valid sc s).1 with
  | Ok true => match f (s <| cur_scope := sc |>) with
               | (Ok a, s2) => (Ok a, s2 <| cur_scope := cur_scope s |>)
               | (Panic t, s2) => (Panic t, s2)
               | (OutOfFuel, s2) => (OutOfFuel, s2)
               end
  | Ok false => (Panic PInvalidScope, s)
  | Panic t => (Panic t, s)
  | OutOfFuel => (OutOfFuel, s)
  end.
Proof.
  unfold within_scope. unfold bindM at 1. rewrite (ro_run _ s (ro_scope_is_valid sc)).
  simpl. destruct ((scope_is_valid sc s).1) as [[|]| |]; reflexivity.
Qed.

Lemma Qsc_within_scope {A} sc (f : M A) s : pres Qsc f -> sc ∈ in_play s -> Qsc s (within_scope sc f s).2.
Proof.
  intros Hf Hsc. rewrite within_scope_run. destruct ((scope_is_valid sc s).1) as [[|]| |]; try reflexivity.
  assert (Qsc s (f (s <| cur_scope := sc |>)).2) as HQ by (etrans; [apply Qsc_set_scope, Hsc|apply Hf]).
  destruct (f (s <| cur_scope := sc |>)) as [[a| |] s2]; [by apply Qsc_restore|done..].
Qed.

Lemma memo_scope_in_play s m mm : memos s !! m = Some mm -> m_scope mm ∈ memo_scopes s.
Proof. intros H. apply elem_of_list_fmap. exists mm. split; [done|]. by eapply elem_of_list_lookup_2. Qed.

(* no entry for the key, or an entry whose node has been freed *)
Definition memo_miss (s : state) (mm : memo) (k : Z) : Prop :=
  match assoc_find k (m_table mm) with
  | None => True
  | Some n => exists x, nodes s !! n = Some x /\ n_live x = false
  end.

(* ---- what a memoised call does *)
Lemma memo_lookup_run mm k s :
  memo_lookup mm k s =
  (match assoc_find k (m_table mm) with
   | None => Ok None
   | Some n => match nodes s !! n with
               | Some x => Ok (if n_live x then Some n else None)
               | None => Panic (PModelGap 1)
               end
   end, s).
Proof.
  unfold memo_lookup. destruct (assoc_find k (m_table mm)) as [n|]; [|done].
  unfold bindM. rewrite get_node_run. by destruct (nodes s !! n).
Qed.

Lemma memo_lookup_miss s mm k : memo_miss s mm k -> memo_lookup mm k s = (Ok None, s).
Proof.
  unfold memo_miss. rewrite memo_lookup_run. destruct (assoc_find k (m_table mm)) as [n|]; [|done].
  by intros (x & -> & ->).
Qed.

(* the underlying function, as [memo_call] runs it *)
Local Notation memo_fn f p m k mm :=
  (user_call ;;; emit (EvMemoFn m k) ;;; instantiate f p (VInt k) (m_body mm) (m_ret mm)).

Lemma memo_call_run f p m k s :
  memo_call (S f) p m k s =
  match memos s !! m with
  | None => (Panic (PModelGap 50), s)
  | Some mm =>
      match (memo_lookup mm k s).1 with
      | Ok (Some n) => (Ok n, s)
      | Ok None =>
          (r <- within_scope (m_scope mm) (memo_fn f p m k mm) ;;
           match r with
           | None => panic (PModelGap 51)
           | Some n => memo_store m k n ;;; collect (ONode n :: (ONode <$> p)) ;;; ret n
           end) s
      | Panic t => (Panic t, s)
      | OutOfFuel => (OutOfFuel, s)
      end
  end.
Proof.
  cbn [memo_call]. unfold bindM at 1, get at 1. cbv beta iota. destruct (memos s !! m) as [mm|]; [|done].
  unfold bindM at 1. rewrite memo_lookup_run. by destruct (assoc_find k (m_table mm)) as [n|]; [destruct (nodes s !! n) as [x|]; [destruct (n_live x)|]|].
Qed.

(* ---- the frame for templates and memoised calls *)
Lemma sc_instantiate_memo fuel :
  (forall p v b r, pres Qsc (instantiate fuel p v b r)) /\ (forall p m k, pres Qsc (memo_call fuel p m k)).
Proof.
  induction fuel as [|f [IH1 IH2]]; (split; intros; [simpl; go|]).
  - apply lg_oof.
  - intros s. rewrite memo_call_run. destruct (memos s !! m) as [mm|] eqn:Em; [|reflexivity].
    destruct ((memo_lookup mm k s).1) as [[n|]| |]; try reflexivity.
    unfold bindM at 1.
    assert (pres Qsc (memo_fn f p m k mm)) as Hbody by go.
    pose proof (Qsc_within_scope (m_scope mm) _ s Hbody (elem_of_list_further _ _ _ (memo_scope_in_play _ _ _ Em))) as HQ.
    destruct (within_scope (m_scope mm) _ s) as [[[n|]| |] s3]; cbn [snd] in HQ; try exact HQ.
    etrans; [exact HQ|]. apply (lg_bind (J := @pres Qsc) (memo_store m k n)); [apply sc_memo_store|]. intros _.
    apply lg_bind; [apply (pres_modify Qsc); intros ?; apply Qsc_collect|]. intros _. apply lg_ret.
Qed.
Lemma sc_instantiate fuel p v b r : pres Qsc (instantiate fuel p v b r). Proof. apply sc_instantiate_memo. Qed.
Lemma sc_memo_call fuel p m k : pres Qsc (memo_call fuel p m k). Proof. apply sc_instantiate_memo. Qed.

Lemma memo_call_hit f p m k s mm n x :
  memos s !! m = Some mm -> assoc_find k (m_table mm) = Some n -> nodes s !! n = Some x -> n_live x = true ->
  memo_call (S f) p m k s = (Ok n, s).
Proof. intros Em Ek Hx Hl. by rewrite memo_call_run, Em, memo_lookup_run, Ek, Hx, Hl. Qed.

(* a successful call is one of the two cases *)
Lemma memo_call_ok_cases f p m k s n s' :
  memo_call (S f) p m k s = (Ok n, s') ->
  exists mm, memos s !! m = Some mm
    /\ ((s' = s /\ assoc_find k (m_table mm) = Some n /\ exists x, nodes s !! n = Some x /\ n_live x = true)
        \/ memo_miss s mm k).
Proof.
  rewrite memo_call_run. destruct (memos s !! m) as [mm|]; [|done]. intros H. exists mm. split; [done|].
  unfold memo_miss. rewrite memo_lookup_run in H. destruct (assoc_find k (m_table mm)) as [n0|] eqn:Ek; [|by right].
  destruct (nodes s !! n0) as [x|] eqn:Hx; [|done]. destruct (n_live x) eqn:Hl; [left|right; by exists x].
  cbn [fst] in H. simplify_eq. split_and!; try done. by exists x.
Qed.

Lemma assoc_find_set k n l : assoc_find k (assoc_set k n l) = Some n.
Proof. unfold assoc_set. simpl. by rewrite bool_decide_eq_true_2. Qed.

Lemma user_call_ok s u s1 : user_call s = (Ok u, s1) -> s1 = s <| inv_count := S (inv_count s) |>.
Proof.
  unfold user_call, bindM, modify, get. cbv beta iota. case_bool_decide; [done|]. unfold ret. intros Hr. by simplify_eq.
Qed.

Lemma memo_call_miss f p m k s mm n s' :
  memos s !! m = Some mm -> memo_miss s mm k -> memo_call (S f) p m k s = (Ok n, s') ->
  (* the underlying function ran, in the scope weak_memoize_fn was called in *)
  (exists s1 s2, cur_scope s1 = m_scope mm /\ events s1 = EvMemoFn m k :: events s /\ nodes s1 = nodes s /\ memos s1 = memos s
     /\ instantiate f p (VInt k) (m_body mm) (m_ret mm) s1 = (Ok (Some n), s2)
     (* the key is bound to the result, and the function's own locals are dropped *)
     /\ s' = (collect (ONode n :: (ONode <$> p))
                (s2 <| cur_scope := cur_scope s |> <| memos := alter (fun mm => mm <| m_table := assoc_set k n (m_table mm) |>) m (memos s2) |>)).2).
Proof.
  intros Em Hmiss H. rewrite memo_call_run, Em, (memo_lookup_miss _ _ _ Hmiss) in H.
  apply bind_ok in H as (r & s3 & Hw & H).
  rewrite within_scope_run in Hw.
  destruct ((scope_is_valid (m_scope mm) s).1) as [[|]| |]; try done.
  match type of Hw with context [bindM ?a ?b ?st] => destruct (bindM a b st) as [[r'| |] s2] eqn:Eb; try done end.
  simplify_eq.
  apply bind_ok in Eb as (u1 & sa & Hu & Eb). apply user_call_ok in Hu as ->.
  apply bind_ok in Eb as (u2 & sb & He & Eb). unfold emit, modify in He. simplify_eq.
  destruct r as [n'|]; [|done].
  unfold memo_store, collect, bindM, modify, ret in H. simplify_eq.
  eexists _, s2. split_and!; [| | | |exact Eb|]; done.
Qed.

(* every node a memoised call creates belongs to a scope in which some weak_memoize_fn was called *)
Local Opaque live_set. (* or [simpl] starts on the collector's reachability fixpoint *)
Lemma memo_call_new_nodes_scope fuel p m k s :
  let s' := (memo_call fuel p m k s).2 in
  forall i x, length (nodes s) <= i -> nodes s' !! i = Some x -> n_created_in x ∈ memo_scopes s.
Proof.
  cbv zeta. assert (forall i x, length (nodes s) <= i -> nodes s !! i = Some x -> n_created_in x ∈ memo_scopes s) as Hs
    by (intros i x Hi Hx; apply lookup_lt_Some in Hx; lia).
  destruct fuel as [|f]; [done|]. rewrite memo_call_run.
  destruct (memos s !! m) as [mm|] eqn:Em; [|done].
  destruct ((memo_lookup mm k s).1) as [[n|]| |]; try done.
  unfold bindM at 1. rewrite within_scope_run.
  destruct ((scope_is_valid (m_scope mm) s).1) as [[|]| |]; try done.
  assert (pres Qsc (memo_fn f p m k mm)) as Hbody.
  { apply lg_bind; [unfold user_call; go|]. intros _. apply lg_bind; [go|]. intros _. apply sc_instantiate. }
  specialize (Hbody (s <| cur_scope := m_scope mm |>)).
  assert (forall sc, sc ∈ in_play (s <| cur_scope := m_scope mm |>) -> sc ∈ memo_scopes s) as Hsub.
  { intros sc Hsc. unfold in_play in Hsc. simpl in Hsc. apply elem_of_cons in Hsc as [->|Hsc]; [by eapply memo_scope_in_play|done]. }
  destruct Hbody as (_&_&_&_&_&N&_).
  destruct (memo_fn f p m k mm (s <| cur_scope := m_scope mm |>)) as [[[n|]| |] s2]; cbn [snd nodes length] in N; simpl; intros i x Hi Hx; apply Hsub.
  2-4: eapply N; done.
  (* the collection at the end only clears liveness flags *)
  rewrite list_lookup_imap in Hx. destruct (nodes s2 !! i) as [y|] eqn:Hy; [|done]. simpl in Hx.
  assert (n_created_in x = n_created_in y) as -> by (case_bool_decide; by simplify_eq).
  eapply N; done.
Qed.

Lemma memo_call_restores_scope f p m k s n s' : memo_call (S f) p m k s = (Ok n, s') -> cur_scope s' = cur_scope s.
Proof.
  intros H. destruct (memo_call_ok_cases _ _ _ _ _ _ _ H) as (mm & Em & [(-> & _)|Hmiss]); [done|].
  destruct (memo_call_miss _ _ _ _ _ _ _ _ Em Hmiss H) as (s1 & s2 & _ & _ & _ & _ & _ & ->). done.
Qed.

(* after any successful call the key is bound to the returned node *)
Lemma memo_call_binds_key f p m k s n s' :
  memo_call (S f) p m k s = (Ok n, s') -> exists mm', memos s' !! m = Some mm' /\ assoc_find k (m_table mm') = Some n.
Proof.
  intros H. destruct (memo_call_ok_cases _ _ _ _ _ _ _ H) as (mm & Em & [(-> & Ek & _)|Hmiss]); [by exists mm|].
  destruct (memo_call_miss _ _ _ _ _ _ _ _ Em Hmiss H) as (s1 & s2 & Hc & He & Hn & Hm & Hi & ->). simpl.
  pose proof (sc_instantiate f p (VInt k) (m_body mm) (m_ret mm) s1) as Q. rewrite Hi in Q. destruct Q as (P&_). simpl in P.
  assert (m < length (memos s2)) as Hlt.
  { apply prefix_length in P. unfold memo_scopes in P. rewrite !fmap_length, Hm in P. apply lookup_lt_Some in Em. lia. }
  destruct (lookup_lt_is_Some_2 _ _ Hlt) as [mm2 Hmm2].
  eexists. rewrite list_lookup_alter, Hmm2. split; [reflexivity|]. simpl. apply assoc_find_set.
Qed.

Lemma memo_call_twice f f' p p' m k s n s' x :
  memo_call (S f) p m k s = (Ok n, s') -> nodes s' !! n = Some x -> n_live x = true ->
  memo_call (S f') p' m k s' = (Ok n, s').
Proof.
  intros H Hx Hl. destruct (memo_call_binds_key _ _ _ _ _ _ _ H) as (mm' & Em & Ek). by eapply memo_call_hit.
Qed.

Lemma memo_call_top_scope fuel p m k s :
  Forall (fun mm => m_scope mm = STop) (memos s) ->
  forall i x, length (nodes s) <= i -> nodes (memo_call fuel p m k s).2 !! i = Some x -> n_created_in x = STop.
Proof.
  intros Htop i x Hi Hx. pose proof (memo_call_new_nodes_scope fuel p m k s i x Hi Hx) as Hin.
  unfold memo_scopes in Hin. apply elem_of_list_fmap in Hin as (mm & -> & Hmm).
  rewrite Forall_forall in Htop. apply Htop. by apply elem_of_list_In.
Qed.
