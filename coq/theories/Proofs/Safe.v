(* A second judgment for the engine monad: [safe I Q m] says that from any state satisfying the
   invariant I, running m ends (whatever the outcome) in a state satisfying I, and if it panics the
   tag satisfies Q.  It is a [Logic] like [pres], and lets "this panic is never raised from a
   consistent state" be proved function by function. *)
From stdpp Require Import base list option numbers.
From RecordUpdate Require Import RecordUpdate.
From Incr.Model Require Import Base Live Engine Api.
From Incr.Proofs Require Import Steps.

Definition safe (I : state -> Prop) (Q : ptag -> Prop) {A} (m : M A) : Prop :=
  forall s, I s -> I (m s).2 /\ (forall t, (m s).1 = Panic t -> Q t).

Global Instance safe_logic (I : state -> Prop) (Q : ptag -> Prop) : Logic (@safe I Q) Q.
Proof.
  split.
  - intros A a s Hs. split; [done|intros t [=]].
  - intros A B m k Hm Hk s Hs. unfold bindM. destruct (Hm s Hs) as [H1 H2].
    destruct (m s) as [[a| |] s'] eqn:E; simpl in *.
    + apply Hk. exact H1.
    + split; [done|]. intros t' [= <-]. by apply H2.
    + split; [done|intros t' [=]].
  - intros A t Ht s Hs. split; [done|]. by intros t' [= <-].
  - intros A s Hs. split; [done|intros t [=]].
  - intros A f s Hs. split; [done|intros t [=]].
Qed.

Lemma safe_modify (I : state -> Prop) (Q : ptag -> Prop) f : (forall s, I s -> I (f s)) -> safe I Q (modify f).
Proof. intros H s Hs. split; [by apply H|intros t [=]]. Qed.

Lemma run_safe (I : state -> Prop) (Q : ptag -> Prop) fuel :
  (forall s, I s -> I (s <| events := [] |>)) -> (forall s, I s -> I (end_of_op s)) ->
  (forall st o, safe I Q (step fuel st o)) ->
  forall ops st s, I s -> Forall (fun e => forall t, e.1.1 = Panic t -> Q t) (run fuel ops st s).
Proof.
  intros H0 H2 H1. induction ops as [|o ops IH]; intros st s Hs; [constructor|].
  rewrite run_cons. cbv zeta. destruct (H1 st o _ (H0 _ Hs)) as [Hi Ht].
  constructor; [|apply IH, H2, Hi].
  intros t. cbn [fst]. destruct (step _ _ _ _).1 as [[? ?]| |]; [done| |done]. intros [= <-]. by apply Ht.
Qed.
