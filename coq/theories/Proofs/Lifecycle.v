(* C10: the observer lifecycle. *)
From stdpp Require Import base list option numbers.
From RecordUpdate Require Import RecordUpdate.
From Incr.Model Require Import Base Live Engine Api.
From Incr.Proofs Require Import Pres FrameGone Reads.

Lemma Rgone_alter_at s s' o f ob :
  obss s !! o = Some ob -> obss s' = alter f o (obss s) -> obs_gone_mono ob (f ob) -> Rgone s s'.
Proof.
  intros Ho H Hf o' ob' Ho'. rewrite H. destruct (decide (o = o')) as [->|Hne].
  - rewrite Ho in Ho'. injection Ho' as <-. exists (f ob). rewrite list_lookup_alter, Ho. done.
  - exists ob'. rewrite list_lookup_alter_ne by done. done.
Qed.

(* add_new_observers writes InUse, which the walk's mask for Rgone rules out; it does so on a Created
   observer only *)
Lemma gone_add_new_observers fuel : pres Rgone (add_new_observers fuel).
Proof.
  unfold add_new_observers.
  apply lg_bind; [go|intros s0].
  apply lg_bind; [go|intros _].
  apply lg_forM_. intros x s. unfold bindM at 1. rewrite get_obs_run.
  destruct (obss s !! x) as [ob|] eqn:Ho; [|reflexivity].
  destruct (negb (o_live ob)); [reflexivity|].
  destruct (o_state ob) eqn:Est; try reflexivity.
  (* Created -> InUse, then code that does not touch lifecycle states *)
  unfold bindM at 1. unfold upd_obs at 1, modify at 1. cbv beta iota.
  transitivity (s <| obss := alter (fun ob => ob <| o_state := OInUse |>) x (obss s) |>).
  { eapply (Rgone_alter_at s _ x _ ob); [exact Ho|reflexivity|].
    split; [done|]. rewrite Est. intros [?|?]; done. }
  match goal with |- Rgone ?s1 (?m ?s1).2 => assert (pres Rgone m) as P by go; apply P end.
Qed.
Global Hint Resolve gone_add_new_observers : frame.

Lemma gone_stabilise_start_links fuel : pres Rgone (stabilise_start_links fuel).
Proof. frame w_stabilise_start_links. Qed.
Global Hint Resolve gone_stabilise_start_links : frame.
Lemma gone_stabilise_start fuel : pres Rgone (stabilise_start fuel). Proof. frame w_stabilise_start. Qed.
Lemma gone_stabilise_end : pres Rgone stabilise_end. Proof. frame w_stabilise_end. Qed.
Global Hint Resolve gone_stabilise_start gone_stabilise_end : frame.
Lemma gone_stabilise fuel : pres Rgone (stabilise fuel). Proof. frame w_stabilise. Qed.
Lemma gone_hnode_get st h : pres Rgone (hnode_get st h). Proof. frame w_hnode_get. Qed.
Global Hint Resolve gone_stabilise gone_hnode_get : frame.
Lemma gone_step fuel st o : pres Rgone (step fuel st o). Proof. frame w_step. Qed.

Lemma run_gone fuel ops : forall st s, Forall (fun e => Rgone s e.2) (run fuel ops st s).
Proof.
  apply (run_pres Rgone); [..|apply gone_step]; intros s.
  - apply Rgone_obss; reflexivity.
  - unfold end_of_op. etrans; [apply (Rgone_collect [])|]. apply Rgone_obss. reflexivity.
Qed.

(* once an observer is disallowed (explicitly, or by dropping its last handle) it stays so through
   any history, and every read of it answers Disallowed (or CurrentlyStabilising while poisoned) *)
Lemma disallowed_forever fuel ops st s o ob :
  obss s !! o = Some ob -> gone (o_state ob) ->
  Forall (fun e => read_result e.2 o = Ok (inr ERR_DISALLOWED)
                   \/ read_result e.2 o = Ok (inr ERR_CURRENTLY_STABILISING)) (run fuel ops st s).
Proof.
  intros Ho Hg. eapply Forall_impl; [|exact (run_gone fuel ops st s)].
  intros e He. destruct (He o ob Ho) as (ob' & Ho' & _ & Hg'). specialize (Hg' Hg).
  unfold read_result. rewrite (observer_read_eq o _ ob' Ho'). cbn [fst].
  destruct (st_status e.2); [left|right; done|left]; destruct Hg' as [-> | ->]; done.
Qed.

(* ... and subscribing to it fails with Disallowed, leaving the state untouched *)
Lemma subscribe_gone o h s ob :
  obss s !! o = Some ob -> gone (o_state ob) -> subscribe o h s = (Ok (inr ERR_DISALLOWED), s).
Proof.
  intros Ho Hg. unfold subscribe, get_obs, bindM, get, gets, ret. cbv beta iota. rewrite Ho. cbv beta iota.
  destruct Hg as [-> | ->]; done.
Qed.

(* unsubscribing with a token of another observer is rejected with Mismatch and changes nothing *)
Lemma unsubscribe_mismatch o to tok s : to <> o -> unsubscribe o to tok s = (Ok ERR_MISMATCH, s).
Proof. intros Hne. unfold unsubscribe. rewrite bool_decide_eq_false_2 by done. done. Qed.

(* unsubscribing through the state after the observer is gone from all_observers is a no-op *)
Lemma state_unsubscribe_gone to tok s : to ∉ all_obs s -> state_unsubscribe to tok s = (Ok tt, s).
Proof.
  intros Hn. unfold state_unsubscribe, bindM, get. cbv beta iota. rewrite bool_decide_eq_false_2 by done. done.
Qed.

(* clones share one lifecycle: dropping a handle that is not the last one changes nothing but the count *)
Lemma drop_clone_keeps_state fuel st o s ob :
  obss s !! o = Some ob -> (1 < o_handles ob)%nat ->
  step fuel st (OpDropObs o) s
  = (Ok (st, OutUnit), s <| obss := alter (fun ob => ob <| o_handles := pred (o_handles ob) |>) o (obss s) |>).
Proof.
  intros Ho Hh. cbn [step]. unfold get_obs, bindM, get, ret, upd_obs, modify. cbv beta iota. rewrite Ho. cbv beta iota.
  rewrite bool_decide_eq_false_2 by lia. done.
Qed.

(* disallow / dropping the last handle touch no other observer's record, no node and not the status *)
Lemma disallow_frame_others o s :
  st_status (disallow_future_use o s).2 = st_status s
  /\ nodes (disallow_future_use o s).2 = nodes s
  /\ forall o', o' <> o -> obss (disallow_future_use o s).2 !! o' = obss s !! o'.
Proof.
  unfold disallow_future_use, get_obs, bindM, get, ret, panic, upd_obs, modify. cbv beta iota.
  destruct (obss s !! o) as [ob|] eqn:Ho; cbv beta iota; [|done].
  destruct (o_state ob); cbv beta iota; simpl; split_and!; try done.
  all: intros o' Hne; by rewrite list_lookup_alter_ne.
Qed.
