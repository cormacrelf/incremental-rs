(* A third judgment for the engine monad, for invariants that only hold as long as nothing panicked:
   [okp2 I J m] says that from a state satisfying I, if m returns normally it does so in a state
   satisfying J.  (After a panic the operation was cut short; the library makes no promise about the
   bookkeeping it was in the middle of updating.)  [okp I] is [okp2 I I]. *)
From stdpp Require Import base list option numbers.
From RecordUpdate Require Import RecordUpdate.
From Incr.Model Require Import Base Live Engine Api.
From Incr.Proofs Require Import Steps.

Definition okp2 (I J : state -> Prop) {A} (m : M A) : Prop :=
  forall s a s', I s -> m s = (Ok a, s') -> J s'.
Notation okp I := (okp2 I I).

Lemma okp2_bind {A B} (I J K : state -> Prop) (m : M A) (k : A -> M B) :
  okp2 I J m -> (forall a, okp2 J K (k a)) -> okp2 I K (bindM m k).
Proof.
  intros Hm Hk s b s' Hs. unfold bindM. destruct (m s) as [[a| |] s1] eqn:E; [|done..].
  intros H. eapply Hk; [|exact H]. by eapply Hm.
Qed.

Lemma okp2_pre {A} (I I' J : state -> Prop) (m : M A) : (forall s, I' s -> I s) -> okp2 I J m -> okp2 I' J m.
Proof. intros H Hm s a s' Hs. apply Hm, H, Hs. Qed.

Global Instance okp_logic (I : state -> Prop) : Logic (@okp2 I I) (fun _ => True).
Proof.
  split; try (intros; intros s b s' Hs [=]; by subst).
  intros A B m k. apply okp2_bind.
Qed.

Lemma okp_modify (I : state -> Prop) f : (forall s, I s -> I (f s)) -> okp I (modify f).
Proof. intros H s b s' Hs [= _ <-]. by apply H. Qed.

(* along a history: P holds after every operation up to (and including) the last one before the first that
   does not return normally *)
Fixpoint while_ok (l : list (res out * list event * state)) (P : state -> Prop) : Prop :=
  match l with
  | [] => True
  | e :: l' => match e.1.1 with Ok _ => P e.2 /\ while_ok l' P | _ => True end
  end.

Lemma run_while_ok (I : state -> Prop) fuel :
  (forall s, I s -> I (s <| events := [] |>)) -> (forall s, I s -> I (end_of_op s)) ->
  (forall st o, okp I (step fuel st o)) ->
  forall ops st s, I s -> while_ok (run fuel ops st s) I.
Proof.
  intros H0 H2 H1. induction ops as [|o ops IH]; intros st s Hs; [done|].
  rewrite run_cons. cbv zeta.
  destruct (step fuel st o (s <| events := [] |>)) as [[[st' out]| |] s1] eqn:E; [|done..].
  assert (I (end_of_op s1)) by (eapply H2, H1; [apply H0, Hs|exact E]).
  split; [done|]. by apply IH.
Qed.
