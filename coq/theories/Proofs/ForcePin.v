(* C05 / C11: the force_necessary pin is only set while change_child_bind_rhs rewires a bind's right-hand side;
   at every quiescent point no node carries it, so "necessary" means: has a recorded dependant or an observer. *)
From stdpp Require Import base list option numbers.
From RecordUpdate Require Import RecordUpdate.
From Incr.Model Require Import Base Live Engine Api.
From Incr.Proofs Require Import Steps.

Definition FNx (X : list nid) (s : state) : Prop :=
  forall n x, nodes s !! n = Some x -> n_force_necessary x = true -> n ∈ X.

Lemma FNx_mono X X' s : (forall n, n ∈ X -> n ∈ X') -> FNx X s -> FNx X' s.
Proof. intros H A n x Hx Hf. apply H. by eapply A. Qed.
Lemma FNx_cons n X s : FNx X s -> FNx (n :: X) s.
Proof. apply FNx_mono. intros m Hm. by right. Qed.

Lemma FNx_resolve X s n x : nodes s !! n = Some x -> n_force_necessary x = false -> FNx (n :: X) s -> FNx X s.
Proof.
  intros Hx Hf A m y Hy Hfy. specialize (A m y Hy Hfy). apply elem_of_cons in A as [->|A]; [|done]. simplify_eq. congruence.
Qed.

Lemma FNx_same X s s' : nodes s' = nodes s -> FNx X s -> FNx X s'.
Proof. intros H A. unfold FNx. by rewrite H. Qed.

Lemma FNx_alter X s s' m f : nodes s' = alter f m (nodes s) ->
  ((forall x, n_force_necessary (f x) = n_force_necessary x) \/ m ∈ X) -> FNx X s -> FNx X s'.
Proof.
  intros H Hf A n x Hx Hfx. rewrite H in Hx.
  apply lookup_alter_Some in Hx as (y & Hy & [[<- ->]|[_ ->]]); [|by eapply A].
  destruct Hf as [Hf|Hin]; [|done]. rewrite Hf in Hfx. by eapply A.
Qed.

Lemma FNx_app X s s' k sc : nodes s' = nodes s ++ [new_node k sc] -> FNx X s -> FNx X s'.
Proof.
  intros H A n x Hx Hfx. rewrite H in Hx. apply lookup_snoc_Some in Hx as [Hx|[_ ->]]; [by eapply A|done].
Qed.

Lemma FNx_collect X pins s : FNx X s -> FNx X (collect pins s).2.
Proof. intros A n x (y & Hy & [->| ->])%lookup_sweep_Some Hfx; by eapply A. Qed.

Lemma FNx_init max_height dbg : FNx [] (init_state max_height dbg).
Proof. intros n x Hx. done. Qed.
