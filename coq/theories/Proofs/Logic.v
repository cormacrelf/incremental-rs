(* Judgments on computations of the engine monad that its combinators respect.  The three the
   frames are stated with are [pres R] (Pres.v: whatever the outcome, the final state is R-related to the
   initial one), [safe I Q] (Safe.v: an invariant kept whatever the outcome, and only tags in Q raised)
   and [okp I] (OkPres.v: an invariant kept on normal return).  Everything that is proved by walking over
   the code of an engine function is proved once, for any such judgment. *)
From stdpp Require Import base list option numbers.
From Incr.Model Require Import Base.

(* [T]: the panic tags the judgment lets a computation raise *)
Class Logic (J : forall A, M A -> Prop) (T : ptag -> Prop) : Prop := {
  lg_ret {A} (a : A) : J A (ret a);
  lg_bind {A B} (m : M A) (k : A -> M B) : J A m -> (forall a, J B (k a)) -> J B (bindM m k);
  lg_panic {A} t : T t -> J A (panic t);
  lg_oof {A} : J A out_of_fuel;
  lg_gets {A} (f : state -> A) : J A (gets f);
}.

Section derived.
Context {J : forall A, M A -> Prop} {T : ptag -> Prop} `{!Logic J T}.

Lemma lg_get : J _ get.
Proof. exact (lg_gets (fun s => s)). Qed.
Lemma lg_when b m : J _ m -> J _ (when b m).
Proof. destruct b; [done|]. intros _. apply lg_ret. Qed.
Lemma lg_massert b t : T t -> J _ (massert b t).
Proof. intros Ht. destruct b; [apply lg_ret|by apply lg_panic]. Qed.
Lemma lg_dassert b site : J _ b -> T (PDebugAssert site) -> J _ (dassert b site).
Proof.
  intros Hb Ht. apply lg_bind; [apply lg_gets|]. intros [|]; [|apply lg_ret].
  apply lg_bind; [done|]. intros [|]; [apply lg_ret|by apply lg_panic].
Qed.
Lemma lg_mapM {A B} (f : A -> M B) l : (forall x, J _ (f x)) -> J _ (mapM f l).
Proof.
  intros Hf. induction l as [|x l IH]; simpl; [apply lg_ret|].
  apply lg_bind; [done|]. intros ?. apply lg_bind; [done|]. intros ?. apply lg_ret.
Qed.
Lemma lg_forM_ {A} (f : A -> M unit) l : (forall x, J _ (f x)) -> J _ (forM_ l f).
Proof.
  intros Hf. induction l as [|x l IH]; simpl; [apply lg_ret|]. apply lg_bind; [done|]. intros ?. done.
Qed.
Lemma lg_foldM {A B} (f : B -> A -> M B) l b : (forall b x, J _ (f b x)) -> J _ (foldM f l b).
Proof.
  intros Hf. revert b. induction l as [|x l IH]; intros b; simpl; [apply lg_ret|].
  apply lg_bind; [done|]. intros ?. done.
Qed.
Lemma lg_forM_break {A} (f : A -> M bool) l : (forall x, J _ (f x)) -> J _ (forM_break l f).
Proof.
  intros Hf. induction l as [|x l IH]; simpl; [apply lg_ret|].
  apply lg_bind; [done|]. intros [|]; [done|apply lg_ret].
Qed.
End derived.

(* One structural step of the walk over a computation; [tag] proves that a tag may be raised.
   Calls of other functions and the elementary writes are left to the caller. *)
Ltac logic_step tag :=
  lazymatch goal with
  | |- _ (ret _) => apply lg_ret
  | |- _ (panic _) => apply lg_panic; tag
  | |- _ out_of_fuel => apply lg_oof
  | |- _ get => apply lg_get
  | |- _ (gets _) => apply lg_gets
  | |- _ (bindM _ _) => apply lg_bind; [|intros ?]
  | |- _ (when _ _) => apply lg_when
  | |- _ (massert _ _) => apply lg_massert; tag
  | |- _ (dassert _ _) => apply lg_dassert; [|tag]
  | |- _ (mapM _ _) => apply lg_mapM; intros ?
  | |- _ (forM_ _ _) => apply lg_forM_; intros ?
  | |- _ (foldM _ _ _) => apply lg_foldM; intros ? ?
  | |- _ (forM_break _ _) => apply lg_forM_break; intros ?
  | |- _ (match ?x with _ => _ end) => destruct x
  end.
