(* C09 / C11: the handler count of a node.

   `num_on_update_handlers` (node.rs) decides whether a node that changed is queued for its update handlers
   (maybe_change_value: `if num_on_update_handlers > 0 { handle_after_stabilisation }`).  It is kept by hand in
   five places: add_to_observed_node / remove_from_observed_node (an observer is linked to / unlinked from the
   node, with whatever handlers it carries), InternalObserver::subscribe / unsubscribe (only when the observer is
   linked) and Node::add_on_update_handler.

   HC: in every node the counter equals the number of handlers attached to the node itself plus the handlers of
   every observer linked to it; the list of linked observers has no duplicates and agrees with the observers'
   own state (InUse or Disallowed = linked); subscription tokens of one observer are distinct (so removing a
   token removes one handler). *)
From stdpp Require Import base list option numbers.
From RecordUpdate Require Import RecordUpdate.
From Incr.Model Require Import Base Live Engine Api.
From Incr.Proofs Require Import Pres OkPres.
Local Open Scope Z_scope.

Definition hlen (s : state) (o : oid) : Z :=
  match obss s !! o with Some ob => zlen (o_handlers ob) | None => 0 end.
Definition hsum (s : state) (l : list oid) : Z := foldr (fun o a => hlen s o + a) 0 l.
Definition linked (ob : obs) : Prop := o_state ob = OInUse \/ o_state ob = ODisallowed.
Definition tokens_ok (ob : obs) : Prop :=
  NoDup (hd_token <$> o_handlers ob) /\ Forall (fun h => hd_token h < o_next_token ob) (o_handlers ob).

Definition HC (s : state) : Prop :=
  (forall n x, nodes s !! n = Some x -> n_num_handlers x = zlen (n_handlers x) + hsum s (n_observers x))
  /\ (forall n x o, nodes s !! n = Some x -> o ∈ n_observers x ->
        exists ob, obss s !! o = Some ob /\ o_observing ob = n /\ linked ob)
  /\ (forall n x, nodes s !! n = Some x -> NoDup (n_observers x))
  /\ (forall o ob, obss s !! o = Some ob -> linked ob ->
        exists x, nodes s !! o_observing ob = Some x /\ o ∈ n_observers x)
  /\ (forall o ob, obss s !! o = Some ob -> tokens_ok ob).

(* debug builds: unlink_disallowed_observers relies on a debug assertion for the state of the observers it is
   handed, so the invariant is stated for debug builds *)
Definition HCd (s : state) : Prop := debug s = true /\ HC s.

Lemma hsum_ext s s' l : (forall o, o ∈ l -> hlen s' o = hlen s o) -> hsum s' l = hsum s l.
Proof.
  induction l as [|a l IH]; intros H; simpl; [done|].
  rewrite H by (by left). rewrite IH; [done|]. intros o Ho. apply H. by right.
Qed.

Lemma hsum_app s l o : hsum s (l ++ [o]) = hsum s l + hlen s o.
Proof. induction l as [|a l IH]; simpl; [lia|]. rewrite IH. lia. Qed.
Lemma filter_all {A} (P : A -> Prop) `{!forall x, Decision (P x)} l : Forall P l -> filter P l = l.
Proof. induction 1 as [|x l Hx _ IH]; [done|]. by rewrite filter_cons_True, IH. Qed.
Lemma hsum_remove s l o : NoDup l -> o ∈ l -> hsum s (remove_from_list o l) = hsum s l - hlen s o.
Proof.
  unfold remove_from_list. induction l as [|a l IH]; intros Hnd Ho; [by apply elem_of_nil in Ho|].
  apply list.NoDup_cons in Hnd as [Ha Hnd]. destruct (decide (a = o)) as [->|Hne].
  - rewrite filter_cons_False by (intros H; by apply H). rewrite filter_all; [simpl; lia|].
    apply list.Forall_forall. by intros b Hb ->.
  - rewrite filter_cons_True by done. simpl. rewrite IH; [lia|done|].
    apply elem_of_cons in Ho as [->|Ho]; done.
Qed.
Lemma hsum_change s s' l o : NoDup l -> o ∈ l -> (forall o', o' <> o -> hlen s' o' = hlen s o') ->
  hsum s' l = hsum s l + (hlen s' o - hlen s o).
Proof.
  intros Hnd Ho Hoth. pose proof (hsum_remove s l o Hnd Ho). pose proof (hsum_remove s' l o Hnd Ho).
  rewrite (hsum_ext s s' (remove_from_list o l)) in *; [lia|]. intros o' [Hne _]%elem_of_list_filter. by apply Hoth.
Qed.

Lemma hlen_alter_ne s s' f o o' : obss s' = alter f o (obss s) -> o' <> o -> hlen s' o' = hlen s o'.
Proof. intros H Hne. unfold hlen. rewrite H, list_lookup_alter_ne by done. done. Qed.
Lemma hlen_alter_eq s s' f o ob : obss s' = alter f o (obss s) -> obss s !! o = Some ob ->
  hlen s' o = zlen (o_handlers (f ob)).
Proof. intros H Ho. unfold hlen. rewrite H, list_lookup_alter, Ho. done. Qed.
Lemma hlen_Some s o ob : obss s !! o = Some ob -> hlen s o = zlen (o_handlers ob).
Proof. intros Ho. unfold hlen. by rewrite Ho. Qed.

Lemma hlen_nonneg s o : 0 <= hlen s o.
Proof. unfold hlen, zlen. destruct (obss s !! o); lia. Qed.
Lemma hsum_nonneg s l : 0 <= hsum s l.
Proof. induction l as [|a l IH]; simpl; [lia|]. pose proof (hlen_nonneg s a). lia. Qed.

(* ---- the frame: HCd reads this much of a node and of an observer, so writes that leave it alone keep HCd *)
Definition nview (x : node) := (n_observers x, n_num_handlers x - zlen (n_handlers x)).
Definition oview (ob : obs) := (o_state ob, o_observing ob, hd_token <$> o_handlers ob, o_next_token ob).

Lemma fmap_eq_lookup {A B} {f : A -> B} {l l' : list A} {i x} :
  f <$> l = f <$> l' -> l !! i = Some x -> exists x', l' !! i = Some x' /\ f x = f x'.
Proof.
  intros H Hx. apply (f_equal (.!! i)) in H. rewrite !list_lookup_fmap, Hx in H.
  destruct (l' !! i) as [x'|]; [|done]. exists x'. by injection H.
Qed.

Lemma HCd_ext s s' : debug s' = debug s -> nview <$> nodes s' = nview <$> nodes s -> oview <$> obss s' = oview <$> obss s ->
  HCd s -> HCd s'.
Proof.
  intros H0 Hn Ho [Hd (A & B & C & D & E)]. split; [congruence|].
  assert (forall l, hsum s' l = hsum s l) as Hs.
  { intros l. apply hsum_ext. intros o _. unfold hlen. apply (f_equal (.!! o)) in Ho. rewrite !list_lookup_fmap in Ho.
    destruct (obss s' !! o), (obss s !! o); try done. injection Ho as _ _ Hh _.
    unfold zlen. by rewrite <- (fmap_length hd_token), Hh, fmap_length. }
  split_and!.
  - intros n x' Hx'. destruct (fmap_eq_lookup Hn Hx') as (x & Hx & [= Hobs Hcnt]).
    rewrite Hs, Hobs. specialize (A n x Hx). lia.
  - intros n x' o Hx' Hin. destruct (fmap_eq_lookup Hn Hx') as (x & Hx & [= Hobs _]). rewrite Hobs in Hin.
    destruct (B n x o Hx Hin) as (ob & Hob & Hov & Hlk).
    destruct (fmap_eq_lookup (eq_sym Ho) Hob) as (ob' & Hob' & [= Hst Hov' _ _]).
    exists ob'. unfold linked in *. by rewrite <- Hst, <- Hov'.
  - intros n x' Hx'. destruct (fmap_eq_lookup Hn Hx') as (x & Hx & [= -> _]). by eapply C.
  - intros o ob' Hob' Hlk. destruct (fmap_eq_lookup Ho Hob') as (ob & Hob & [= Hst Hov _ _]).
    unfold linked in Hlk. rewrite Hst in Hlk. rewrite Hov. destruct (D o ob Hob Hlk) as (x & Hx & Hin).
    destruct (fmap_eq_lookup (eq_sym Hn) Hx) as (x' & Hx' & [= Hobs _]). exists x'. by rewrite <- Hobs.
  - intros o ob' Hob'. destruct (fmap_eq_lookup Ho Hob') as (ob & Hob & [= _ _ Hh Ht]).
    destruct (E o ob Hob) as [Hnd Hlt]. split; [by rewrite Hh|].
    apply (Forall_fmap hd_token (fun t => t < o_next_token ob')). rewrite Hh, Ht. by apply Forall_fmap.
Qed.

Lemma HCd_same s s' : debug s' = debug s -> nodes s' = nodes s -> obss s' = obss s -> HCd s -> HCd s'.
Proof. intros H0 H1 H2. apply HCd_ext; congruence. Qed.
Lemma HCd_alter s s' m f : debug s' = debug s -> nodes s' = alter f m (nodes s) -> obss s' = obss s ->
  (forall x, n_observers (f x) = n_observers x /\
             n_num_handlers (f x) - zlen (n_handlers (f x)) = n_num_handlers x - zlen (n_handlers x)) ->
  HCd s -> HCd s'.
Proof.
  intros H0 H1 H2 Hf. apply HCd_ext; [done| |congruence]. rewrite H1. apply fmap_alter_same.
  intros x. unfold nview. by destruct (Hf x) as [-> ->].
Qed.
Lemma HCd_alter_obs_handles s s' o f : debug s' = debug s -> obss s' = alter f o (obss s) -> nodes s' = nodes s ->
  (forall ob, o_state (f ob) = o_state ob /\ o_observing (f ob) = o_observing ob /\ o_handlers (f ob) = o_handlers ob
              /\ o_next_token (f ob) = o_next_token ob) ->
  HCd s -> HCd s'.
Proof.
  intros H0 H2 H1 Hf. apply HCd_ext; [done|congruence|]. rewrite H2. apply fmap_alter_same.
  intros ob. unfold oview. by destruct (Hf ob) as (-> & -> & -> & ->).
Qed.
(* an update handler only records what it has told its closure: the table keeps its tokens *)
Lemma HCd_obs_prev s s' o i p : debug s' = debug s ->
  obss s' = alter (fun ob => ob <| o_handlers := alter (fun h => h <| hd_prev := p |>) i (o_handlers ob) |>) o (obss s) ->
  nodes s' = nodes s -> HCd s -> HCd s'.
Proof.
  intros H0 H2 H1. apply HCd_ext; [done|congruence|]. rewrite H2. apply fmap_alter_same.
  intros ob. unfold oview. simpl. by rewrite fmap_alter_same.
Qed.
(* the sweep clears live flags only *)
Lemma HCd_collect pins s : HCd s -> HCd (collect pins s).2.
Proof. apply HCd_ext; [done|apply fmap_imap_same..]; intros i x; simpl; by case_bool_decide. Qed.

Lemma HCd_app s s' k sc : debug s' = debug s -> nodes s' = nodes s ++ [new_node k sc] -> obss s' = obss s -> HCd s -> HCd s'.
Proof.
  intros H0 H1 H2 [Hd (A & B & C & D & E)]. split; [congruence|]. unfold HC.
  assert (forall l, hsum s' l = hsum s l) as Hs by (intros l; apply hsum_ext; intros o _; unfold hlen; by rewrite H2).
  rewrite H1, H2. split_and!; [| | | |done].
  - intros n x [Hx|[_ ->]]%lookup_snoc_Some; [rewrite Hs; by eapply A|done].
  - intros n x o [Hx|[_ ->]]%lookup_snoc_Some Hin; [by eapply B|by apply elem_of_nil in Hin].
  - intros n x [Hx|[_ ->]]%lookup_snoc_Some; [by eapply C|constructor].
  - intros o ob Ho Hl. destruct (D o ob Ho Hl) as (x & Hx & Hin). exists x. split; [|done]. by apply lookup_app_l_Some.
Qed.

(* a new observer: not linked, no handlers *)
Lemma HCd_app_obs s s' n : debug s' = debug s -> obss s' = obss s ++ [Obs OCreated n [] 1 1 true] -> nodes s' = nodes s ->
  HCd s -> HCd s'.
Proof.
  intros H0 H2 H1 [Hd (A & B & C & D & E)]. split; [congruence|]. unfold HC. rewrite H1, H2. split_and!; [| |done| |].
  - intros m x Hx. rewrite (hsum_ext s); [by eapply A|]. intros o Hin. destruct (B m x o Hx Hin) as (ob & Ho & _).
    unfold hlen. by rewrite H2, (lookup_app_l_Some _ _ _ _ Ho), Ho.
  - intros m x o Hx Hin. destruct (B m x o Hx Hin) as (ob & Ho & ?). exists ob. split; [|done]. by apply lookup_app_l_Some.
  - intros o ob [Ho|[_ ->]]%lookup_snoc_Some Hlk; [by apply D|by destruct Hlk].
  - intros o ob [Ho|[_ ->]]%lookup_snoc_Some; [by eapply E|split; simpl; constructor].
Qed.

Lemma HCd_init N : HCd (init_state N true).
Proof. repeat split; intros; done. Qed.

(* ---- the writers.  An observer o changes, and with it the node n it observes: afterwards n's list holds o
   exactly if o is linked, and n's counter is right again.  Linking an observer (add_to_observed_node),
   unlinking it (remove_from_observed_node), giving it a handler or taking one away (subscribe, unsubscribe)
   and changes to an observer that leave its node alone are all of this form. *)
Lemma HC_update s s' o ob f g :
  HC s -> obss s !! o = Some ob ->
  obss s' = alter f o (obss s) -> nodes s' = alter g (o_observing ob) (nodes s) ->
  o_observing (f ob) = o_observing ob -> (tokens_ok ob -> tokens_ok (f ob)) ->
  (linked (f ob) -> is_Some (nodes s !! o_observing ob)) ->
  (forall x, nodes s !! o_observing ob = Some x ->
     NoDup (n_observers (g x))
     /\ (forall o', o' ∈ n_observers (g x) <-> o' <> o /\ o' ∈ n_observers x \/ o' = o /\ linked (f ob))
     /\ n_num_handlers (g x) = zlen (n_handlers (g x)) + hsum s' (n_observers (g x))) ->
  HC s'.
Proof.
  intros (A & B & C & D & E) Ho H2 H1 Hov Htok Hn Hg. unfold HC. rewrite H1, H2. set (n := o_observing ob) in *.
  assert (forall m x, nodes s !! m = Some x -> o ∈ n_observers x -> m = n) as Honly.
  { intros m x Hx Hin. destruct (B m x o Hx Hin) as (ob' & Ho' & <- & _). by simplify_eq. }
  split_and!.
  - intros m x' (x & Hx & [[<- ->]|[Hne ->]])%lookup_alter_Some; [by apply Hg|].
    rewrite (hsum_ext s s'); [by eapply A|]. intros o' Hin. eapply hlen_alter_ne; [done|]. intros ->. destruct Hne. symmetry. eauto.
  - intros m x' o' (x & Hx & [[<- ->]|[Hne ->]])%lookup_alter_Some Hin.
    + apply Hg in Hin as [[Hne Hin]|[-> Hlk]]; [| |done].
      * destruct (B n x o' Hx Hin) as (ob' & Ho' & ?). exists ob'. by rewrite list_lookup_alter_ne.
      * exists (f ob). by rewrite list_lookup_alter, Ho.
    + destruct (B m x o' Hx Hin) as (ob' & Ho' & ?). exists ob'. rewrite list_lookup_alter_ne; [done|]. intros <-. destruct Hne. symmetry. eauto.
  - intros m x' (x & Hx & [[<- ->]|[_ ->]])%lookup_alter_Some; [by apply Hg|by eapply C].
  - intros o' ob'' (ob' & Ho' & [[<- ->]|[Hne ->]])%lookup_alter_Some Hlk.
    + simplify_eq. rewrite Hov. destruct (Hn Hlk) as [x Hx]. exists (g x). rewrite list_lookup_alter, Hx.
      split; [done|]. apply Hg; auto.
    + destruct (D o' ob' Ho' Hlk) as (x & Hx & Hin). destruct (decide (n = o_observing ob')) as [Heq|Hne'].
      * rewrite <- Heq in *. exists (g x). rewrite list_lookup_alter, Hx. split; [done|]. apply Hg; auto.
      * exists x. by rewrite list_lookup_alter_ne.
  - intros o' ob'' (ob' & Ho' & [[<- ->]|[_ ->]])%lookup_alter_Some; [simplify_eq; by eapply Htok, E|by eapply E].
Qed.

(* an observer changes but stays linked, or stays unlinked; if it is linked and the number of its handlers moves,
   its node's counter moves by as much (subscribe, unsubscribe, disallow_future_use) *)
Lemma HC_keep s s' o ob f g d :
  HC s -> obss s !! o = Some ob ->
  obss s' = alter f o (obss s) -> nodes s' = alter g (o_observing ob) (nodes s) ->
  o_observing (f ob) = o_observing ob -> (tokens_ok ob -> tokens_ok (f ob)) -> (linked (f ob) <-> linked ob) ->
  (forall x, n_observers (g x) = n_observers x /\
             n_num_handlers (g x) - zlen (n_handlers (g x)) = n_num_handlers x - zlen (n_handlers x) + d) ->
  (linked ob -> zlen (o_handlers (f ob)) = zlen (o_handlers ob) + d) -> (linked ob \/ d = 0) ->
  HC s'.
Proof.
  intros Hs Ho H2 H1 Hov Htok Hlk Hg Hlen Hd. pose proof Hs as (A & B & C & D & E).
  eapply (HC_update s s' o ob f g); [done..| |].
  - intros Hl%Hlk. destruct (D o ob Ho Hl) as (x & Hx & _). by eexists.
  - intros x Hx. destruct (Hg x) as [Hobs Hcnt]. rewrite Hobs. specialize (A _ _ Hx).
    assert (o ∈ n_observers x <-> linked ob) as Hin.
    { split; [intros Hin; destruct (B _ x o Hx Hin) as (? & ? & _ & ?); by simplify_eq|].
      intros Hl. destruct (D o ob Ho Hl) as (x' & Hx' & Hin). by simplify_eq. }
    split_and!; [by eapply C|intros o'; rewrite Hlk, <- Hin; destruct (decide (o' = o)) as [->|]; intuition auto|].
    destruct (decide (o ∈ n_observers x)) as [Hi|Hni].
    + rewrite (hsum_change s s' _ o); [|by eapply C|done|intros; by eapply hlen_alter_ne].
      rewrite (hlen_alter_eq s s' f o ob H2 Ho), (hlen_Some s o ob Ho). apply Hin in Hi. specialize (Hlen Hi). lia.
    + rewrite (hsum_ext s s'); [destruct Hd as [?%Hin| ->]; [done|lia]|].
      intros o' Ho'. eapply hlen_alter_ne; [done|]. by intros ->.
Qed.

(* an observer is linked to its node, with whatever handlers it carries (add_to_observed_node) *)
Lemma HC_link s s' o ob n :
  obss s !! o = Some ob -> o_state ob = OCreated -> o_observing ob = n -> is_Some (nodes s !! n) ->
  obss s' = alter (fun ob => ob <| o_state := OInUse |>) o (obss s) ->
  nodes s' = alter (fun x => x <| n_observers := n_observers x ++ [o] |>
                               <| n_num_handlers := n_num_handlers x + zlen (o_handlers ob) |>) n (nodes s) ->
  HC s -> HC s'.
Proof.
  intros Ho Hst <- Hn H2 H1 Hs. pose proof Hs as (A & B & C & D & E).
  eapply (HC_update s s' o ob); [done|done|exact H2|exact H1|done|done|done|].
  intros x Hx. simpl.
  assert (o ∉ n_observers x) as Hnot by (intros Hin; destruct (B _ x o Hx Hin) as (ob' & Ho' & _ & [?|?]); congruence).
  split_and!.
  - apply NoDup_app. split_and!; [by eapply C| |apply NoDup_singleton]. by intros y Hy ->%elem_of_list_singleton.
  - intros o'. rewrite elem_of_app, elem_of_list_singleton. unfold linked. simpl. destruct (decide (o' = o)) as [->|]; [split; auto|tauto].
  - rewrite hsum_app, (hsum_ext s s'), (hlen_alter_eq s s' _ o ob H2 Ho) by (intros; eapply hlen_alter_ne; [done|by intros ->]).
    specialize (A _ _ Hx). simpl. lia.
Qed.

(* a linked observer is unlinked (remove_from_observed_node) *)
Lemma HC_unlink s s' o ob n :
  obss s !! o = Some ob -> linked ob -> o_observing ob = n ->
  obss s' = alter (fun ob => ob <| o_state := OUnlinked |>) o (obss s) ->
  nodes s' = alter (fun x => x <| n_observers := remove_from_list o (n_observers x) |>
                               <| n_num_handlers := n_num_handlers x - zlen (o_handlers ob) |>) n (nodes s) ->
  HC s -> HC s'.
Proof.
  intros Ho Hlk <- H2 H1 Hs. pose proof Hs as (A & B & C & D & E). destruct (D o ob Ho Hlk) as (xn & Hxn & Hon).
  eapply (HC_update s s' o ob); [done|done|exact H2|exact H1|done|done|by intros [?|?]|].
  intros x Hx. simplify_eq. simpl. split_and!.
  - apply list.NoDup_filter. by eapply C.
  - intros o'. unfold remove_from_list, linked. rewrite elem_of_list_filter. simpl. naive_solver.
  - rewrite (hsum_ext s s'), hsum_remove, (hlen_Some s o ob Ho) by
      (done || (by eapply C) || intros o' [Hne _]%elem_of_list_filter; by eapply hlen_alter_ne).
    specialize (A _ _ Hxn). lia.
Qed.

Lemma filter_token_id (l : list handler) tok :
  tok ∉ (hd_token <$> l) -> filter (fun h => hd_token h <> tok) l = l.
Proof.
  intros Hnot. apply filter_all, list.Forall_forall. intros h Hin <-. by apply Hnot, elem_of_list_fmap_1.
Qed.

Lemma filter_token_length (l : list handler) tok :
  NoDup (hd_token <$> l) -> existsb (fun h => bool_decide (hd_token h = tok)) l = true ->
  zlen (filter (fun h => hd_token h <> tok) l) = zlen l - 1.
Proof.
  unfold zlen. induction l as [|h l IH]; intros Hnd Hex; [done|].
  rewrite fmap_cons in Hnd. apply list.NoDup_cons in Hnd as [Hh Hnd]. simpl in Hex.
  destruct (decide (hd_token h = tok)) as [Heq|Hne].
  - rewrite filter_cons_False by (intros H; by apply H).
    rewrite filter_token_id by (by rewrite <- Heq). simpl length. lia.
  - rewrite filter_cons_True by done. rewrite bool_decide_eq_false_2 in Hex by done. simpl in Hex.
    specialize (IH Hnd Hex). simpl length. lia.
Qed.

Lemma tokens_ok_filter ob (P : handler -> Prop) `{!forall h, Decision (P h)} :
  tokens_ok ob -> tokens_ok (ob <| o_handlers := filter P (o_handlers ob) |>).
Proof.
  intros [Hnd Hlt]. split; simpl.
  - clear Hlt. induction (o_handlers ob) as [|h l IH]; [constructor|].
    rewrite fmap_cons in Hnd. apply list.NoDup_cons in Hnd as [Hh Hnd].
    rewrite filter_cons. destruct (decide (P h)); [|by apply IH].
    rewrite fmap_cons. apply list.NoDup_cons. split; [|by apply IH].
    intros (h' & Heq & [_ Hin]%elem_of_list_filter)%elem_of_list_fmap. apply Hh. rewrite Heq. by apply elem_of_list_fmap_1.
  - rewrite list.Forall_forall in *. intros h [_ Hin]%elem_of_list_filter. by apply Hlt.
Qed.

Lemma tokens_ok_push ob h now :
  tokens_ok ob ->
  tokens_ok (ob <| o_next_token := o_next_token ob + 1 |>
                <| o_handlers := o_handlers ob ++ [Handler (o_next_token ob) h PNever now] |>).
Proof.
  intros [Hnd Hlt]. split; simpl.
  - rewrite fmap_app. apply list.NoDup_app. split_and!; [done| |apply list.NoDup_singleton].
    intros t (h' & Heq & Hin)%elem_of_list_fmap ->%elem_of_list_singleton.
    rewrite list.Forall_forall in Hlt. specialize (Hlt h' Hin). simpl in *. lia.
  - apply Forall_app. split; [|constructor; [simpl; lia|constructor]].
    eapply List.Forall_impl; [|exact Hlt]. simpl. intros h' Hh'. lia.
Qed.

Lemma bind_upd_obs {B} o f (k : unit -> M B) s : bindM (upd_obs o f) k s = k tt (s <| obss := alter f o (obss s) |>).
Proof. done. Qed.
Lemma bind_get_obs_ok {B} o (k : obs -> M B) s b s' :
  bindM (get_obs o) k s = (Ok b, s') -> exists ob, obss s !! o = Some ob /\ k ob s = (Ok b, s').
Proof. unfold bindM. rewrite get_obs_run. destruct (obss s !! o) as [ob|]; [|done]. by exists ob. Qed.
(* `on_update_handlers` is mutably borrowed while an observer's handlers run *)
Lemma bind_borrow_ok {B} (b : bool) t (k : unit -> M B) s r s' :
  bindM (if b then panic t else ret tt) k s = (Ok r, s') -> k tt s = (Ok r, s').
Proof. by destruct b. Qed.

Lemma bind_dassert_ret {B} (b : bool) site (k : unit -> M B) s : debug s = true ->
  bindM (dassert (ret b) site) k s = if b then k tt s else (Panic (PDebugAssert site), s).
Proof. intros Hd. unfold dassert, bindM, gets, ret. rewrite Hd. by destruct b. Qed.

(* ---- the functions that keep the books, each relative to the functions it calls *)
Lemma hc_observe n : okp HCd (observe n).
Proof.
  unfold observe. apply lg_bind; [apply lg_get|intros s0]. apply lg_bind; [|intros; apply lg_ret].
  apply okp_modify. intros s Hs. by eapply (HCd_app_obs s).
Qed.

Lemma hc_add_on_update_handler n h : okp HCd (add_on_update_handler n h).
Proof.
  unfold add_on_update_handler. apply lg_bind; [apply lg_gets|intros now].
  apply okp_modify. intros s Hs. eapply (HCd_alter s); [done..| |done].
  intros x. simpl. split; [done|]. unfold zlen. rewrite app_length. simpl. lia.
Qed.

Lemma hc_disallow o : okp HCd (disallow_future_use o).
Proof.
  intros s a s' [Hd Hs] E. unfold disallow_future_use in E. apply bind_get_obs_ok in E as (ob & Ho & E).
  destruct (o_state ob) eqn:Hst; injection E as _ <-; [| |done..]; (split; [exact Hd|]).
  - (* Created: its handlers are dropped; it is not linked *)
    eapply (HC_keep s _ o ob _ id 0); [done|done|reflexivity|symmetry; by apply list_alter_id|done| |
                                      |intros; split; [done|simpl; lia]| |by right].
    + intros _. split; simpl; constructor.
    + unfold linked. simpl. rewrite Hst. naive_solver.
    + intros [?|?]; congruence.
  - (* InUse -> Disallowed: still linked *)
    eapply (HC_keep s _ o ob _ id 0); [done|done|reflexivity|symmetry; by apply list_alter_id|done|done|
                                      |intros; split; [done|simpl; lia]|intros _; simpl; lia|by right].
    unfold linked. simpl. rewrite Hst. naive_solver.
Qed.

Lemma hc_subscribe : (forall n, okp HCd (handle_after_stabilisation n)) -> forall o h, okp HCd (subscribe o h).
Proof.
  intros Hhas o h s a s' [Hd Hs] E. unfold subscribe in E. apply bind_get_obs_ok in E as (ob & Ho & E).
  rewrite bind_gets in E.
  assert (okp HCd (handle_after_stabilisation (o_observing ob) ;;; ret (inl (o_next_token ob) : Z + Z))) as Hk.
  { apply lg_bind; [apply Hhas|]. intros ?. apply lg_ret. }
  destruct (o_state ob) eqn:Hst; [| |by injection E as _ <-..].
  all: rewrite bind_upd_obs, bind_get in E; apply bind_borrow_ok in E; rewrite bind_upd_obs in E.
  - (* Created: not linked, the node's counter is not touched *)
    rewrite bind_ret in E. eapply Hk; [|exact E]. split; [exact Hd|].
    eapply (HC_keep s _ o ob _ id 0); [done|done|symmetry; apply list_alter_compose|symmetry; by apply list_alter_id|done
                                      |exact (tokens_ok_push ob h _)|reflexivity|intros; split; [done|simpl; lia]| |by right].
    intros [?|?]; congruence.
  - (* InUse *)
    rewrite bind_upd_node in E. eapply Hk; [|exact E]. split; [exact Hd|].
    eapply (HC_keep s _ o ob _ _ 1); [done|done|symmetry; apply list_alter_compose|reflexivity|done
                                     |exact (tokens_ok_push ob h _)|reflexivity|intros; split; [done|simpl; lia]| |by do 2 left].
    intros _. simpl. unfold zlen. rewrite app_length. simpl. lia.
Qed.

Lemma hc_unsubscribe o to tok : okp HCd (unsubscribe o to tok).
Proof.
  intros s a s' [Hd Hs] E. unfold unsubscribe in E.
  destruct (negb (bool_decide (to = o))); [by injection E as _ <-|].
  apply bind_get_obs_ok in E as (ob & Ho & E). pose proof Hs as (_ & _ & _ & _ & Etok).
  destruct (o_state ob) eqn:Hst; [| |by injection E as _ <-..].
  all: rewrite bind_get in E; apply bind_borrow_ok in E.
  all: destruct (existsb _ (o_handlers ob)) eqn:Hex; cbn [negb] in E; [|by injection E as _ <-].
  all: rewrite bind_upd_obs in E; injection E as _ <-; (split; [exact Hd|]).
  - eapply (HC_keep s _ o ob _ id 0); [done|done|reflexivity|symmetry; by apply list_alter_id|done
                                      |apply tokens_ok_filter|reflexivity|intros; split; [done|simpl; lia]| |by right].
    intros [?|?]; congruence.
  - eapply (HC_keep s _ o ob _ _ (-1)); [done|done|reflexivity|reflexivity|done
                                        |apply tokens_ok_filter|reflexivity|intros; split; [done|simpl; lia]| |by do 2 left].
    intros _. simpl. rewrite filter_token_length; [lia| |exact Hex]. by destruct (Etok o ob Ho).
Qed.

Lemma hc_add_new_observers :
  (forall n, okp HCd (handle_after_stabilisation n)) -> (forall fuel n, okp HCd (became_necessary fuel n)) ->
  (forall fuel, okp HCd (propagate_invalidity fuel)) -> forall fuel, okp HCd (add_new_observers fuel).
Proof.
  intros Hhas Hbn Hpi fuel. unfold add_new_observers. apply lg_bind; [apply lg_get|]. intros s0.
  apply lg_bind.
  { apply okp_modify. intros s Hs. by eapply (HCd_same s). }
  intros _. apply lg_forM_. intros o.
  intros s a s' [Hd Hs] E. apply bind_get_obs_ok in E as (ob & Ho & E).
  destruct (o_live ob); cbn [negb] in E; [|by injection E as _ <-].
  destruct (o_state ob) eqn:Hst; [|done..|by injection E as _ <-].
  rewrite bind_upd_obs, bind_get_node in E. simpl in E. destruct (nodes s !! o_observing ob) as [x|] eqn:Hx; [|done].
  rewrite bind_modify, bind_upd_node in E.
  match type of E with ?R ?s3 = _ => assert (okp HCd R) as Hk end.
  { repeat first [ logic_step ltac:(exact I) | apply Hhas | apply Hbn | apply Hpi | unfold get_node ]. }
  eapply Hk; [|exact E]. split; [exact Hd|]. eapply (HC_link s _ o ob (o_observing ob)); [done|done|done|by eexists|reflexivity|reflexivity|done].
Qed.

(* debug builds check that the observer handed to unlink is a disallowed one *)
Lemma hc_unlink_disallowed :
  (forall fuel n, okp HCd (check_if_unnecessary fuel n)) -> forall fuel, okp HCd (unlink_disallowed_observers fuel).
Proof.
  intros Hciu fuel. unfold unlink_disallowed_observers. apply lg_bind; [apply lg_get|]. intros s0.
  apply lg_bind.
  { apply okp_modify. intros s Hs. by eapply (HCd_same s). }
  intros _. apply lg_forM_. intros o.
  intros s a s' [Hd Hs] E. apply bind_get_obs_ok in E as (ob & Ho & E).
  destruct (o_live ob); cbn [negb] in E; [|by injection E as _ <-].
  rewrite bind_dassert_ret in E by done.
  destruct (o_state ob) eqn:Hst; try done.
  rewrite bind_upd_obs in E. unfold unlink_observer in E. rewrite bind_upd_node, bind_modify in E.
  eapply Hciu; [|exact E]. split; [exact Hd|].
  eapply (HC_unlink s _ o ob (o_observing ob)); [done|by right|done..].
Qed.

(* ---- what the counter is for: a subscribed, linked observer keeps it positive *)
Lemma linked_subscription_counts s o ob x :
  HC s -> obss s !! o = Some ob -> linked ob -> o_handlers ob <> [] -> nodes s !! o_observing ob = Some x ->
  0 < n_num_handlers x.
Proof.
  intros (A & B & C & D & E) Ho Hlk Hne Hx. destruct (D o ob Ho Hlk) as (x' & Hx' & Hin). simplify_eq.
  pose proof (hsum_remove s _ o (C _ _ Hx) Hin) as Hrm. pose proof (hsum_nonneg s (remove_from_list o (n_observers x))).
  rewrite (A _ x Hx), (hlen_Some s o ob Ho) in *. unfold zlen in *. destruct (o_handlers ob); [done|]. simpl in *. lia.
Qed.

Lemma own_handler_counts s n x : HC s -> nodes s !! n = Some x -> n_handlers x <> [] -> 0 < n_num_handlers x.
Proof.
  intros (A & _) Hx Hne. rewrite (A _ x Hx). pose proof (hsum_nonneg s (n_observers x)).
  unfold zlen. destruct (n_handlers x); [done|]. simpl. lia.
Qed.
