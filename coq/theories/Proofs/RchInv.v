(* C11: the recompute heap and the nodes' height_in_recompute_heap cells describe the same set. *)
From stdpp Require Import base list option numbers.
From RecordUpdate Require Import RecordUpdate.
From Incr.Model Require Import Base Live Engine Api.
From Incr.Proofs Require Import Pres Safe Steps.

(* a node is in queue h exactly when its cell says h; no node twice in a queue *)
Definition rch_inv (s : state) : Prop :=
  (forall h q n, rch_queues s !! h = Some q -> n ∈ q ->
     exists x, nodes s !! n = Some x /\ n_height_in_rch x = Z.of_nat h)
  /\ (forall n x, nodes s !! n = Some x -> (0 <= n_height_in_rch x)%Z ->
        exists q, rch_queues s !! Z.to_nat (n_height_in_rch x) = Some q /\ n ∈ q)
  /\ (forall h q, rch_queues s !! h = Some q -> NoDup q).

(* the invariant with node n taken out of the queues (its cell may still say otherwise) *)
Definition rch_inv_but (s : state) (n : nid) : Prop :=
  (forall h q m, rch_queues s !! h = Some q -> m ∈ q ->
     exists x, nodes s !! m = Some x /\ n_height_in_rch x = Z.of_nat h)
  /\ (forall m x, m <> n -> nodes s !! m = Some x -> (0 <= n_height_in_rch x)%Z ->
        exists q, rch_queues s !! Z.to_nat (n_height_in_rch x) = Some q /\ m ∈ q)
  /\ (forall h q, rch_queues s !! h = Some q -> NoDup q)
  /\ (forall h q, rch_queues s !! h = Some q -> n ∉ q).

(* ---- both only read the queues and the cells *)
Lemma cell_ext (l l' : list node) n x : (n_height_in_rch <$> l' !! n) = (n_height_in_rch <$> l !! n) ->
  l !! n = Some x -> exists x', l' !! n = Some x' /\ n_height_in_rch x' = n_height_in_rch x.
Proof. intros H Hx. rewrite Hx in H. destruct (l' !! n) as [x'|]; [|done]. injection H as H. by exists x'. Qed.

Lemma rch_inv_but_ext s s' n :
  rch_queues s' = rch_queues s ->
  (forall m, (n_height_in_rch <$> nodes s' !! m) = (n_height_in_rch <$> nodes s !! m)) ->
  rch_inv_but s n -> rch_inv_but s' n.
Proof.
  intros Hq Hn (I1 & I2 & I3 & I4). unfold rch_inv_but. rewrite Hq. split_and!; [| |done|done].
  - intros h q m Hhq Hin. destruct (I1 _ _ _ Hhq Hin) as (x & Hx & Hh).
    destruct (cell_ext _ _ _ _ (Hn m) Hx) as (x' & Hx' & E). exists x'. split; [done|congruence].
  - intros m x' Hm Hx' Hpos. destruct (cell_ext _ _ _ _ (eq_sym (Hn m)) Hx') as (x & Hx & E).
    rewrite <- E in *. by eapply I2.
Qed.
Lemma rch_inv_ext s s' :
  rch_queues s' = rch_queues s ->
  (forall n, (n_height_in_rch <$> nodes s' !! n) = (n_height_in_rch <$> nodes s !! n)) ->
  rch_inv s -> rch_inv s'.
Proof.
  intros Hq Hn (I1 & I2 & I3). unfold rch_inv. rewrite Hq. split_and!; [| |done].
  - intros h q m Hhq Hin. destruct (I1 _ _ _ Hhq Hin) as (x & Hx & Hh).
    destruct (cell_ext _ _ _ _ (Hn m) Hx) as (x' & Hx' & E). exists x'. split; [done|congruence].
  - intros m x' Hx' Hpos. destruct (cell_ext _ _ _ _ (eq_sym (Hn m)) Hx') as (x & Hx & E).
    rewrite <- E in *. by eapply I2.
Qed.

(* ---- a node enters or leaves: in between, the invariant holds but for that node *)
Lemma rch_inv_but_of_inv s n x : rch_inv s -> nodes s !! n = Some x -> (n_height_in_rch x < 0)%Z -> rch_inv_but s n.
Proof.
  intros (I1 & I2 & I3) Hx Hneg. split_and!; [done| |done|].
  - intros m y _ Hy Hpos. by eapply I2.
  - intros h q Hq Hin. destruct (I1 _ _ _ Hq Hin) as (y & Hy & Hh). simplify_eq. lia.
Qed.

(* n leaves its queue, of which q' remains *)
Lemma rch_inv_take s s' n x q q' :
  rch_inv s -> nodes s !! n = Some x -> (0 <= n_height_in_rch x)%Z ->
  rch_queues s !! Z.to_nat (n_height_in_rch x) = Some q -> q ≡ₚ n :: q' ->
  nodes s' = nodes s -> rch_queues s' = <[Z.to_nat (n_height_in_rch x) := q']> (rch_queues s) ->
  rch_inv_but s' n.
Proof.
  intros (I1 & I2 & I3) Hx Hpos Hq Hp Hn Hqs. unfold rch_inv_but. rewrite Hn, Hqs.
  pose proof (lookup_lt_Some _ _ _ Hq) as Hlt.
  pose proof (I3 _ _ Hq) as Hnd. rewrite Hp in Hnd. apply list.NoDup_cons in Hnd as [Hnin Hnd]. split_and!.
  - intros h q0 m [(<- & <- & _)|[_ Hq0]]%list_lookup_insert_Some Hm; [eapply I1; [done|]; rewrite Hp; by right|by eapply I1].
  - intros m y Hm Hy Hpy. destruct (I2 _ _ Hy Hpy) as (q0 & Hq0 & Hin).
    destruct (decide (Z.to_nat (n_height_in_rch y) = Z.to_nat (n_height_in_rch x))) as [E|E].
    + rewrite E in *. simplify_eq. exists q'. rewrite list_lookup_insert by done. split; [done|].
      rewrite Hp in Hin. by apply elem_of_cons in Hin as [->|Hin].
    + exists q0. by rewrite list_lookup_insert_ne.
  - intros h q0 [(<- & <- & _)|[_ Hq0]]%list_lookup_insert_Some; [done|by eapply I3].
  - intros h q0 [(<- & <- & _)|[Hne Hq0]]%list_lookup_insert_Some Hin; [done|].
    destruct (I1 _ _ _ Hq0 Hin) as (y & Hy & Hhy). simplify_eq. lia.
Qed.

(* setting n's cell to -1 once it is out of the queues restores the invariant *)
Lemma rch_inv_clear s s' n :
  rch_inv_but s n -> nodes s' = alter (fun x => x <| n_height_in_rch := (-1)%Z |>) n (nodes s) ->
  rch_queues s' = rch_queues s -> rch_inv s'.
Proof.
  intros (I1 & I2 & I3 & I4) Hn Hq. unfold rch_inv. rewrite Hn, Hq. split_and!; [| |done].
  - intros h q m Hq' Hin. destruct (I1 _ _ _ Hq' Hin) as (x & Hx & Hh). exists x.
    rewrite list_lookup_alter_ne; [done|]. intros <-. by eapply I4.
  - intros m y (x & Hx & [[<- ->]|[Hne ->]])%lookup_alter_Some Hpos; [simpl in Hpos; lia|].
    eapply I2; [congruence|done..].
Qed.

(* so does putting n at the end of the queue for h, with h in its cell *)
Lemma rch_inv_link s s' n h q :
  rch_inv_but s n -> is_Some (nodes s !! n) -> (0 <= h)%Z -> rch_queues s !! Z.to_nat h = Some q ->
  nodes s' = alter (fun x => x <| n_height_in_rch := h |>) n (nodes s) ->
  rch_queues s' = <[Z.to_nat h := q ++ [n]]> (rch_queues s) -> rch_inv s'.
Proof.
  intros (I1 & I2 & I3 & Hfree) [x Hx] H0 Hq Hn Hqs. unfold rch_inv. rewrite Hn, Hqs.
  pose proof (lookup_lt_Some _ _ _ Hq) as Hlt. split_and!.
  - intros h' q0 m Hq0 Hm.
    assert (m = n /\ h' = Z.to_nat h \/ exists q1, rch_queues s !! h' = Some q1 /\ m ∈ q1) as [[-> ->]|(q1 & Hq1 & Hm1)].
    { apply list_lookup_insert_Some in Hq0 as [(<- & <- & _)|[_ Hq0]]; [|eauto].
      apply elem_of_app in Hm as [Hm| ->%elem_of_list_singleton]; eauto. }
    + eexists. rewrite list_lookup_alter, Hx. split; [done|]. simpl. lia.
    + destruct (I1 _ _ _ Hq1 Hm1) as (y & Hy & Hhy). exists y.
      rewrite list_lookup_alter_ne; [done|]. intros <-. by eapply Hfree.
  - intros m y (z & Hz & [[<- ->]|[Hne ->]])%lookup_alter_Some Hpos.
    + exists (q ++ [n]). simpl. rewrite list_lookup_insert by done. split; [done|]. apply elem_of_app. right. constructor.
    + destruct (I2 m z) as (q1 & Hq1 & Hin); [congruence|done..|].
      destruct (decide (Z.to_nat (n_height_in_rch z) = Z.to_nat h)) as [E|E].
      * rewrite E in *. simplify_eq. exists (q ++ [n]). rewrite list_lookup_insert by done.
        split; [done|]. apply elem_of_app. by left.
      * exists q1. by rewrite list_lookup_insert_ne.
  - intros h' q0 [(<- & <- & _)|[_ Hq0]]%list_lookup_insert_Some; [|by eapply I3].
    apply NoDup_app. split_and!; [by eapply I3| |apply NoDup_singleton].
    intros m Hm ->%elem_of_list_singleton. by eapply Hfree.
Qed.

(* swap_remove takes out the element at i and keeps the others, in some order *)
Lemma swap_remove_perm {A} (l : list A) i x : l !! i = Some x -> l ≡ₚ x :: swap_remove l i.
Proof.
  intros Hi. unfold swap_remove. destruct (stdpp.list.last l) as [y|] eqn:Hl.
  2:{ apply last_None in Hl. by subst. }
  apply last_Some in Hl as [l' ->]. rewrite app_length, Nat.add_sub. case_bool_decide as Hlast.
  - subst i. rewrite removelast_last, lookup_app_r, Nat.sub_diag in * by done. injection Hi as <-.
    by rewrite Permutation_app_comm.
  - assert (i < length l')%nat as Hlt by (apply lookup_lt_Some in Hi; rewrite app_length in Hi; simpl in Hi; lia).
    rewrite lookup_app_l in Hi by done. rewrite insert_app_l, removelast_last by done.
    rewrite insert_take_drop by done. rewrite <- (take_drop_middle l' i x Hi) at 1.
    rewrite <- app_assoc. simpl. rewrite <- !Permutation_middle. by rewrite app_nil_r.
Qed.

Lemma swap_remove_length {A} (l : list A) i x : l !! i = Some x -> length l = S (length (swap_remove l i)).
Proof. intros H. exact (Permutation_length (swap_remove_perm l i x H)). Qed.

(* ---- the relation threaded through the engine: in a debug build (where the heap's preconditions are
   asserted) every function keeps the invariant, whatever its outcome *)
Definition Rri : relation state := fun s s' => debug s = true -> rch_inv s -> rch_inv s' /\ debug s' = true.
Global Instance Rri_preorder : PreOrder Rri.
Proof.
  split; [intros s Hd Hi; done|]. intros a b c H1 H2 Hd Hi. destruct (H1 Hd Hi) as [Hb Hdb]. by apply H2.
Qed.

Definition Iri (s : state) : Prop := debug s = true /\ rch_inv s.
(* the three internal failures of the heap: "node was not in recompute heap", and an index out of
   bounds when a queue is indexed, to push (103) or to look a node up (104) *)
Definition Qri (t : ptag) : Prop := t <> PNotInRch /\ t <> PIndex 103 /\ t <> PIndex 104.

Lemma Iri_of_Rri s s' : Rri s s' -> Iri s -> Iri s'.
Proof. intros R [Hd Hi]. destruct (R Hd Hi). done. Qed.

Ltac qri := (unfold Qri; split_and!; congruence).

(* ---- what the heap's operations compute: each either panics, with a tag in Qri unless the state
   was inconsistent, or returns in the state given *)
Definition link_state (s : state) (n : nid) (h : Z) (q : list nid) : state :=
  s <| nodes := alter (fun x => x <| n_height_in_rch := h |>) n (nodes s) |>
    <| rch_queues := <[Z.to_nat h := q ++ [n]]> (rch_queues s) |>.

Lemma rch_link_spec n s :
  (exists x q, nodes s !! n = Some x /\ (0 <= n_height x <= rch_max_allowed s)%Z
      /\ rch_queues s !! Z.to_nat (n_height x) = Some q
      /\ rch_link n s = (Ok tt, link_state s n (n_height x) q))
  \/ (exists t, rch_link n s = (Panic t, s) /\ Qri t
        /\ forall x, nodes s !! n = Some x -> ~ (0 <= n_height x <= rch_max_allowed s)%Z).
Proof.
  unfold rch_link. rewrite bind_get_node. destruct (nodes s !! n) as [x|]; [|right; eexists; split_and!; [done|qri|done]].
  unfold massert. case_bool_decide as H0; [|right; eexists; split_and!; [done|qri|intros ? [= <-]; lia]].
  rewrite bind_ret, bind_get. case_bool_decide as H1; [|right; eexists; split_and!; [done|qri|intros ? [= <-]; lia]].
  rewrite bind_ret, bind_upd_node. unfold zget. rewrite bool_decide_eq_false_2 by lia.
  destruct (rch_queues s !! Z.to_nat (n_height x)) as [q|] eqn:Hq; [left; by exists x, q|].
  apply lookup_ge_None in Hq. unfold rch_max_allowed, zlen in H1. lia.
Qed.

Lemma rch_unlink_spec n s :
  (exists x q i, nodes s !! n = Some x /\ (0 <= n_height_in_rch x)%Z
      /\ rch_queues s !! Z.to_nat (n_height_in_rch x) = Some q /\ q !! i = Some n
      /\ rch_unlink n s = (Ok tt, s <| rch_queues := <[Z.to_nat (n_height_in_rch x) := swap_remove q i]> (rch_queues s) |>))
  \/ (exists t, rch_unlink n s = (Panic t, s)
        /\ forall x, nodes s !! n = Some x -> (0 <= n_height_in_rch x)%Z -> ~ rch_inv s).
Proof.
  unfold rch_unlink. rewrite bind_get_node. destruct (nodes s !! n) as [x|] eqn:Hx; [|right; by eexists].
  rewrite bind_get. unfold zget. case_bool_decide as Hneg; [right; eexists; split; [done|]; intros ? [= <-]; lia|].
  destruct (rch_queues s !! Z.to_nat (n_height_in_rch x)) as [q|] eqn:Hq.
  2:{ right. eexists. split; [done|]. intros ? [= <-] Hpos (_ & I2 & _). destruct (I2 _ _ Hx Hpos) as (? & ? & _). congruence. }
  unfold find_pos. destruct (list_find (λ y, y = n) q) as [[i y]|] eqn:Hf; simpl.
  - apply list_find_Some in Hf as (Hi & -> & _). left. exists x, q, i. split_and!; [done|lia|done..].
  - right. eexists. split; [done|]. intros ? [= <-] Hpos (_ & I2 & _). destruct (I2 _ _ Hx Hpos) as (q' & Hq' & Hin).
    simplify_eq. apply list_find_None in Hf. rewrite list.Forall_forall in Hf. by destruct (Hf n Hin).
Qed.

(* s' is s with the heap's lower bound moved, upwards over empty queues only *)
Definition bound_moved (s s' : state) : Prop :=
  nodes s' = nodes s /\ rch_queues s' = rch_queues s /\ rch_len s' = rch_len s /\ debug s' = debug s
  /\ forall h q, rch_queues s !! h = Some q -> (Z.of_nat h < rch_lower s')%Z -> (Z.of_nat h < rch_lower s)%Z \/ q = [].

Lemma bound_moved_refl s : bound_moved s s.
Proof. split_and!; auto. Qed.
Lemma bound_moved_up s s' : zget (rch_queues s) (rch_lower s) = Some [] ->
  bound_moved (s <| rch_lower := (rch_lower s + 1)%Z |>) s' -> bound_moved s s'.
Proof.
  intros Hq (H1 & H2 & H3 & H4 & H5). split_and!; [done..|]. intros h q Hh Hlt.
  destruct (H5 h q Hh Hlt) as [Hlt'|]; [|by right]. simpl in Hlt'.
  destruct (decide (Z.of_nat h < rch_lower s)%Z); [by left|right]. unfold zget in Hq. case_bool_decide; [done|].
  replace (Z.to_nat (rch_lower s)) with h in Hq by lia. congruence.
Qed.
Lemma bound_moved_inv s s' : bound_moved s s' -> rch_inv s -> rch_inv s'.
Proof. intros (H1 & H2 & _). apply rch_inv_ext; [done|]. by rewrite H1. Qed.

Lemma rch_insert_spec n s : debug s = true ->
  exists s1, bound_moved s s1 /\
  ((exists x q, nodes s !! n = Some x /\ (n_height_in_rch x < 0)%Z /\ needs_to_be_computed s x = true
      /\ (0 <= n_height x)%Z /\ (rch_lower s1 <= n_height x)%Z /\ rch_queues s1 !! Z.to_nat (n_height x) = Some q
      /\ rch_insert n s = (Ok tt, link_state s1 n (n_height x) q <| rch_len := (rch_len s1 + 1)%Z |>))
   \/ (exists t, rch_insert n s = (Panic t, s1) /\ Qri t)).
Proof.
  intros Hd. unfold rch_insert. rewrite bind_dassert_node by done. destruct (nodes s !! n) as [x|] eqn:Hx.
  2:{ exists s. split; [apply bound_moved_refl|]. right. eexists. split; [done|qri]. }
  rewrite bind_dassert_node, Hx, bind_get_node, Hx, bind_get, bind_when by done.
  destruct (negb (in_rch x) && needs_to_be_computed s x) eqn:H1, (bool_decide (n_height x <= rch_max_allowed s)%Z);
    try (exists s; split; [apply bound_moved_refl|]; right; eexists; split; [done|qri]).
  apply andb_true_iff in H1 as [H1%negb_true_iff%bool_decide_eq_false Hc].
  set (s1 := if bool_decide _ then _ else s).
  assert (bound_moved s s1 /\ (rch_lower s1 <= n_height x)%Z) as [Hm Hlow].
  { subst s1. case_bool_decide; (split; [|simpl; lia]); [|apply bound_moved_refl].
    split_and!; [done..|]. simpl. intros h q _ ?. left. lia. }
  exists s1. split; [done|]. unfold bindM.
  destruct (rch_link_spec n s1) as [(x' & q & Hx' & H0 & Hq & ->)|(t & -> & Ht & _)]; [left|right; by exists t].
  destruct Hm as (Hn1 & _). rewrite Hn1 in Hx'. simplify_eq. exists x, q. split_and!; [done|lia|done|lia|done..].
Qed.

Lemma rch_remove_spec n s : debug s = true ->
  (exists x q i, nodes s !! n = Some x /\ (0 <= n_height_in_rch x)%Z
      /\ rch_queues s !! Z.to_nat (n_height_in_rch x) = Some q /\ q !! i = Some n
      /\ rch_remove n s = (Ok tt, s <| rch_queues := <[Z.to_nat (n_height_in_rch x) := swap_remove q i]> (rch_queues s) |>
                                     <| nodes := alter (fun x => x <| n_height_in_rch := (-1)%Z |>) n (nodes s) |>
                                     <| rch_len := (rch_len s - 1)%Z |>))
  \/ (exists t, rch_remove n s = (Panic t, s) /\ (rch_inv s -> Qri t)).
Proof.
  intros Hd. unfold rch_remove. rewrite bind_dassert_node by done.
  destruct (nodes s !! n) as [x|] eqn:Hx; [|right; eexists; split; [done|intros _; qri]].
  destruct (in_rch x && _) eqn:Hc; [|right; eexists; split; [done|intros _; qri]].
  apply andb_true_iff in Hc as [Hin%bool_decide_eq_true _]. unfold bindM.
  destruct (rch_unlink_spec n s) as [(x' & q & i & Hx' & _ & Hq & Hi & ->)|(t & -> & Hno)].
  - simplify_eq. left. exists x, q, i. split_and!; done.
  - right. eexists. split; [done|]. intros Hinv. by destruct (Hno x Hx Hin).
Qed.

Lemma rch_increase_height_spec n s : debug s = true ->
  (exists x q i q', nodes s !! n = Some x /\ (0 <= n_height_in_rch x < n_height x)%Z
      /\ rch_queues s !! Z.to_nat (n_height_in_rch x) = Some q /\ q !! i = Some n
      /\ let s1 := s <| rch_queues := <[Z.to_nat (n_height_in_rch x) := swap_remove q i]> (rch_queues s) |> in
         rch_queues s1 !! Z.to_nat (n_height x) = Some q'
         /\ rch_increase_height n s = (Ok tt, link_state s1 n (n_height x) q'))
  \/ (exists t, rch_increase_height n s = (Panic t, s) /\ (rch_inv s -> Qri t)).
Proof.
  intros Hd. unfold rch_increase_height.
  rewrite bind_dassert_node' by done.
  destruct (nodes s !! n) as [x|] eqn:Hx; [|right; eexists; split; [done|intros _; qri]].
  rewrite bind_dassert_node', Hx, bind_dassert_node, Hx by done.
  destruct (bool_decide (n_height_in_rch x < n_height x)%Z) eqn:H1, (in_rch x) eqn:H2,
    (bool_decide (n_height x <= rch_max_allowed s)%Z) eqn:H3;
    try (right; eexists; split; [done|intros _; qri]).
  apply bool_decide_eq_true in H1, H2, H3. unfold bindM.
  destruct (rch_unlink_spec n s) as [(x' & q & i & Hx' & _ & Hq & Hi & ->)|(t & -> & Hno)].
  2:{ right. eexists. split; [done|]. intros Hinv. by destruct (Hno x Hx H2). }
  simplify_eq. set (s1 := s <| rch_queues := _ |>).
  destruct (rch_link_spec n s1) as [(x' & q' & Hx' & _ & Hq' & ->)|(t & _ & _ & Hno)].
  - simpl in Hx'. simplify_eq. left. exists x, q, i, q'. split_and!; [done|lia|done..].
  - destruct (Hno x Hx). unfold rch_max_allowed, zlen in *. simpl. rewrite insert_length. lia.
Qed.

Lemma rch_set_max_spec m s : debug s = true ->
  (Forall (fun q => q = []) (drop (Z.to_nat (m + 1)) (rch_queues s))
   /\ rch_set_max_height_allowed m s =
       (Ok tt, s <| rch_queues := resize (rch_queues s) (Z.to_nat (m + 1)) [] |>
                 <| rch_lower := Z.min (rch_lower s) (zlen (resize (rch_queues s) (Z.to_nat (m + 1)) []) + 1) |>))
  \/ rch_set_max_height_allowed m s = (Panic (PAssert 113), s).
Proof.
  intros Hd. unfold rch_set_max_height_allowed. rewrite bind_get, Hd.
  destruct (forallb _ _) eqn:Hall; [left|by right]. split; [|done].
  apply Forall_forall. intros q Hin. rewrite forallb_forall in Hall. by eapply bool_decide_eq_true_1, Hall.
Qed.

(* the scanning loop of remove_min stops at a queue that is not empty, or gives up *)
Lemma rch_scan_spec fuel : forall s r s', rch_scan fuel s = (r, s') ->
  bound_moved s s' /\ (forall t, r = Panic t -> Qri t)
  /\ forall q, r = Ok (Some q) -> q <> [] /\ zget (rch_queues s) (rch_lower s') = Some q.
Proof.
  induction fuel as [|f IH]; intros s r s' E; [injection E as <- <-; split_and!; [apply bound_moved_refl|done..]|].
  cbn [rch_scan] in E. rewrite bind_get in E. destruct (zget _ _) as [q|] eqn:Hq.
  2:{ injection E as <- <-. split_and!; [apply bound_moved_refl|done..]. }
  case_bool_decide as Hnil.
  2:{ injection E as <- <-. split_and!; [apply bound_moved_refl|done|]. by intros ? [= <-]. }
  subst q. rewrite bind_modify, bind_dassert_state in E. destruct (_ && _).
  - injection E as <- <-. split_and!; [by apply bound_moved_up, bound_moved_refl|intros ? [= <-]; qri|done].
  - apply IH in E as (Hm & Ht & Hsome). split_and!; [by apply bound_moved_up|done|].
    intros q Hr. destruct (Hsome q Hr). done.
Qed.

Lemma rch_remove_min_spec s : debug s = true ->
  exists s2, bound_moved s s2 /\
  ((exists n q', (0 <= rch_lower s2)%Z /\ rch_queues s !! Z.to_nat (rch_lower s2) = Some (n :: q')
      /\ rch_remove_min s =
          (Ok (Some n), s2 <| rch_queues := <[Z.to_nat (rch_lower s2) := q']> (rch_queues s2) |>
                           <| nodes := alter (fun x => x <| n_height_in_rch := (-1)%Z |>) n (nodes s2) |>
                           <| rch_len := (rch_len s2 - 1)%Z |>))
   \/ (exists r, rch_remove_min s = (r, s2) /\ (forall n, r <> Ok (Some n)) /\ forall t, r = Panic t -> Qri t)).
Proof.
  intros Hd. unfold rch_remove_min. rewrite bind_get.
  case_bool_decide; [exists s; split; [apply bound_moved_refl|]; right; by eexists|].
  rewrite bind_dassert_state. destruct (_ && _); [exists s; split; [apply bound_moved_refl|]; right; eexists; split_and!; [done..|intros ? [= <-]; qri]|].
  unfold bindM. destruct (rch_scan _ s) as [r s2] eqn:E. apply rch_scan_spec in E as (Hm & Ht & Hsome).
  exists s2. split; [done|]. destruct r as [[[|n q']|]| |]; try (right; eexists; split_and!; [done..|intros ? [=]; subst; by apply Ht]).
  destruct (Hsome _ eq_refl) as [_ Hq]. unfold zget in Hq. case_bool_decide; [done|]. left. exists n, q'. split_and!; [lia|done..].
Qed.

Lemma ri_rch_insert n : pres Rri (rch_insert n).
Proof.
  intros s Hd Hi. destruct (rch_insert_spec n s Hd) as (s1 & Hm & H). pose proof (bound_moved_inv _ _ Hm Hi) as Hi1.
  destruct Hm as (Hn1 & _ & _ & Hd1 & _).
  destruct H as [(x & q & Hx & Hneg & _ & H0 & _ & Hq & ->)|(t & -> & _)]; (split; [|simpl; congruence]); [|done].
  rewrite <- Hn1 in Hx. eapply rch_inv_link; [by eapply rch_inv_but_of_inv|by eexists|done..].
Qed.

Lemma ri_rch_remove n : pres Rri (rch_remove n).
Proof.
  intros s Hd Hi. destruct (rch_remove_spec n s Hd) as [(x & q & i & Hx & Hpos & Hq & Hi' & ->)|(t & -> & _)]; [|done].
  split; [|done]. eapply (rch_inv_clear (s <| rch_queues := _ |>)); [|done..].
  eapply (rch_inv_take s); [done..|by apply swap_remove_perm|done|done].
Qed.

Lemma ri_rch_increase_height n : pres Rri (rch_increase_height n).
Proof.
  intros s Hd Hi.
  destruct (rch_increase_height_spec n s Hd) as [(x & q & i & q' & Hx & Hpos & Hq & Hi' & Hq' & ->)|(t & -> & _)]; [|done].
  split; [|done]. eapply (rch_inv_link (s <| rch_queues := _ |>) _ n (n_height x)); [|by eexists|lia|exact Hq'|done..].
  eapply (rch_inv_take s); [done|done|lia|done|by apply swap_remove_perm|done|done].
Qed.

(* set_max_height_allowed: debug builds refuse to drop a non-empty queue *)
Lemma resize_lookup_nil (qs : list (list nid)) k h q : Forall (fun q => q = []) (drop k qs) -> q <> [] ->
  resize qs k [] !! h = Some q <-> qs !! h = Some q.
Proof.
  intros Hemp Hq. unfold resize. split.
  - intros [H|[_ H]]%lookup_app_Some; [by apply lookup_take_Some in H as [H _]|by apply lookup_replicate in H as [-> _]].
  - intros H. apply lookup_app_l_Some, lookup_take_Some. split; [done|]. destruct (decide (h < k)%nat); [done|].
    rewrite Forall_lookup in Hemp. destruct Hq. apply (Hemp (h - k)%nat). rewrite lookup_drop, <- H. f_equal. lia.
Qed.

Lemma ri_rch_set_max m : pres Rri (rch_set_max_height_allowed m).
Proof.
  intros s Hd (I1 & I2 & I3). destruct (rch_set_max_spec m s Hd) as [[Hemp ->]| ->]; [|done]. split; [|done].
  assert (forall h q n, n ∈ q -> resize (rch_queues s) (Z.to_nat (m + 1)) [] !! h = Some q <-> rch_queues s !! h = Some q) as Hl.
  { intros h q n Hin. apply resize_lookup_nil; [done|]. intros ->. by apply elem_of_nil in Hin. }
  split_and!; simpl.
  - intros h q n Hq Hin. apply (Hl _ _ _ Hin) in Hq. by eapply I1.
  - intros n x Hx Hpos. destruct (I2 _ _ Hx Hpos) as (q & Hq & Hin). exists q. split; [by apply (Hl _ _ _ Hin)|done].
  - intros h q Hq. destruct q as [|n q]; [constructor|]. eapply I3, (Hl _ _ n), Hq. by left.
Qed.

Lemma ri_rch_remove_min : pres Rri rch_remove_min.
Proof.
  intros s Hd Hi. destruct (rch_remove_min_spec s Hd) as (s2 & Hm & H). pose proof (bound_moved_inv _ _ Hm Hi) as Hi2.
  destruct Hm as (Hn2 & Hq2 & _ & Hd2 & _).
  destruct H as [(n & q' & Hlow & Hq & ->)|(r & -> & _)]; (split; [|simpl; congruence]); [|done].
  rewrite <- Hq2 in Hq. destruct (proj1 Hi2 _ _ n Hq) as (x & Hx & Hh); [by left|].
  replace (Z.to_nat (rch_lower s2)) with (Z.to_nat (n_height_in_rch x)) in * by lia.
  eapply (rch_inv_clear (s2 <| rch_queues := _ |>)); [|done..]. eapply (rch_inv_take s2); [done|done|lia|done..].
Qed.

Lemma rch_inv_init max_height dbg : rch_inv (init_state max_height dbg).
Proof.
  unfold init_state. split_and!; simpl.
  - intros h q n Hq Hin. apply lookup_replicate in Hq as [-> _]. by apply elem_of_nil in Hin.
  - intros n x Hx. done.
  - intros h q Hq. apply lookup_replicate in Hq as [-> _]. constructor.
Qed.

(* ---- from a consistent state, none of the heap's internal failures *)
Lemma safe_Iri {A} (m : M A) : pres Rri m -> (forall s, Iri s -> forall t, (m s).1 = Panic t -> Qri t) -> safe Iri Qri m.
Proof. intros Hp Ht s Hs. split; [exact (Iri_of_Rri _ _ (Hp s) Hs)|exact (Ht s Hs)]. Qed.

Lemma sf_rch_insert n : safe Iri Qri (rch_insert n).
Proof.
  apply safe_Iri; [apply ri_rch_insert|]. intros s [Hd _].
  destruct (rch_insert_spec n s Hd) as (s1 & _ & [(x & q & _ & _ & _ & _ & _ & _ & ->)|(t' & -> & Ht)]); by intros ? [= <-].
Qed.

Lemma sf_rch_remove n : safe Iri Qri (rch_remove n).
Proof.
  apply safe_Iri; [apply ri_rch_remove|]. intros s [Hd Hi].
  destruct (rch_remove_spec n s Hd) as [(x & q & i & _ & _ & _ & _ & ->)|(t' & -> & Ht)]; intros ? [= <-]. by apply Ht.
Qed.

Lemma sf_rch_increase_height n : safe Iri Qri (rch_increase_height n).
Proof.
  apply safe_Iri; [apply ri_rch_increase_height|]. intros s [Hd Hi].
  destruct (rch_increase_height_spec n s Hd) as [(x & q & i & q' & _ & _ & _ & _ & _ & ->)|(t' & -> & Ht)]; intros ? [= <-].
  by apply Ht.
Qed.

Lemma sf_rch_set_max m : safe Iri Qri (rch_set_max_height_allowed m).
Proof.
  apply safe_Iri; [apply ri_rch_set_max|]. intros s [Hd _].
  destruct (rch_set_max_spec m s Hd) as [[_ ->]| ->]; intros ? [= <-]. qri.
Qed.

Lemma sf_rch_remove_min : safe Iri Qri rch_remove_min.
Proof.
  apply safe_Iri; [apply ri_rch_remove_min|]. intros s [Hd _].
  destruct (rch_remove_min_spec s Hd) as (s2 & _ & [(n & q' & _ & _ & ->)|(r & -> & _ & Ht)]); [done|apply Ht].
Qed.
