(* C01: what each kind of node computes when it is recomputed — its defining function, applied to the
   values its inputs have at that moment. *)
From stdpp Require Import base list option numbers.
From RecordUpdate Require Import RecordUpdate.
From Incr.Model Require Import Base Live Engine Api.
From Incr.Proofs Require Import Steps.

Lemma value_of_run n s : value_of n s = (Ok (node_value (S n) s n), s).
Proof. done. Qed.

Lemma unwrap_value_eq c site s v : node_value (S c) s c = Some v -> unwrap_value c site s = (Ok v, s).
Proof. intros E. unfold unwrap_value. by rewrite (bind_eq _ _ _ _ _ (value_of_run c s)), E. Qed.

(* reading the inputs: the values the children have now (map_ref children are read through) *)
Lemma unwrap_values cs vs site s :
  Forall2 (fun c v => node_value (S c) s c = Some v) cs vs ->
  mapM (fun c => unwrap_value c site) cs s = (Ok vs, s).
Proof.
  induction 1 as [|c v cs vs Hc _ IH]; [done|]. cbn [mapM].
  by rewrite (bind_eq _ _ _ _ _ (unwrap_value_eq _ site _ _ Hc)), (bind_eq _ _ _ _ _ IH).
Qed.

(* a map node (map, map2, ...): the user's function is applied to the inputs' current values, and what
   it returns is what maybe_change_value is given *)
Lemma map_node_computes fuel n s x f cs vs :
  nodes s !! n = Some x -> node_kind x = Some (KMap f cs) -> c_internal f = false ->
  Forall2 (fun c v => node_value (S c) s c = Some v) cs vs ->
  recompute_body fuel n s =
    (user_call ;;;
     run_effects fuel (default VUnit (vs !! 0%nat)) (c_effs f) ;;;
     emit (EvInv n (c_cap f) vs (fn_sem (c_fid f) (c_cap f) vs)) ;;;
     maybe_change_value fuel n (fn_sem (c_fid f) (c_cap f) vs)) s.
Proof.
  intros Hx Hk Hint Hvs. unfold recompute_body.
  by rewrite (bind_eq _ _ _ _ _ (get_node_eq _ _ _ Hx)), Hk, (bind_eq _ _ _ _ _ (unwrap_values _ _ 340 _ Hvs)), Hint.
Qed.

(* a fold node: the fold function is threaded through the inputs' current values, left to right *)
Fixpoint fold_steps (n : nid) (f : closure) (acc : val) (vs : list val) : M val :=
  match vs with
  | [] => ret acc
  | v :: vs' =>
      user_call ;;;
      let r := fold_sem (c_fid f) (c_cap f) acc v in
      emit (EvFoldCall n acc v r) ;;; fold_steps n f r vs'
  end.

Lemma node_value_ext fuel s s' n : nodes s' = nodes s -> node_value fuel s' n = node_value fuel s n.
Proof.
  intros H. revert n. induction fuel as [|f IH]; intros n; [done|]. cbn [node_value]. rewrite H.
  destruct (nodes s !! n) as [x|]; [|done]. destruct (node_kind x) as [[]|]; try done.
  case_bool_decide; [|done]. by rewrite IH.
Qed.

Lemma user_call_nodes s : nodes (user_call s).2 = nodes s.
Proof.
  unfold user_call, bindM, modify, get. cbv beta iota. case_bool_decide; done.
Qed.

Lemma fold_reads n (f : closure) cs vs s :
  Forall2 (fun c v => node_value (S c) s c = Some v) cs vs ->
  forall acc s', nodes s' = nodes s ->
  foldM (fun acc c => v <- unwrap_value c 342 ;; user_call ;;; let r := fold_sem (c_fid f) (c_cap f) acc v in
                      emit (EvFoldCall n acc v r) ;;; ret r) cs acc s'
  = fold_steps n f acc vs s'.
Proof.
  induction 1 as [|c v cs vs Hc Hrest IH]; intros acc s' Hs; [done|].
  cbn [foldM fold_steps]. rewrite <-(node_value_ext _ _ _ _ Hs) in Hc.
  pose proof (user_call_nodes s') as Hn.
  unfold bindM. rewrite (unwrap_value_eq _ 342 _ _ Hc). destruct (user_call s') as [[[]| |] s1]; [|done..].
  apply IH. simpl in *. congruence.
Qed.

Lemma fold_node_computes fuel n s x f init cs vs :
  nodes s !! n = Some x -> node_kind x = Some (KFold f init cs) ->
  Forall2 (fun c v => node_value (S c) s c = Some v) cs vs ->
  recompute_body fuel n s = (acc <- fold_steps n f init vs ;; maybe_change_value fuel n acc) s.
Proof.
  intros Hx Hk Hvs. unfold recompute_body. rewrite (bind_eq _ _ _ _ _ (get_node_eq _ _ _ Hx)), Hk.
  unfold bindM. by rewrite <-(fold_reads n f _ _ _ Hvs init s).
Qed.

(* a bind's main node copies the value its current right-hand side has now *)
Lemma bind_main_copies fuel n s x b lc bd rhs rx v :
  nodes s !! n = Some x -> node_kind x = Some (KBindMain b lc) ->
  binds s !! b = Some bd -> b_rhs bd = Some rhs ->
  nodes s !! rhs = Some rx -> n_valid rx = true -> node_value (S rhs) s rhs = Some v ->
  recompute_body fuel n s = maybe_change_value fuel n v s.
Proof.
  intros Hx Hk Hb Hr Hrx Hv Hval. unfold recompute_body.
  rewrite (bind_eq _ _ _ _ _ (get_node_eq _ _ _ Hx)), Hk, (bind_eq _ _ _ _ _ (get_bind_eq _ _ _ Hb)), Hr.
  unfold copy_child_bindrhs.
  by rewrite (bind_eq _ _ _ _ _ (get_node_eq _ _ _ Hrx)), Hv, (bind_eq _ _ _ _ _ (value_of_run rhs s)), Hval.
Qed.

(* a constant *)
Lemma const_node_computes fuel n s x v :
  nodes s !! n = Some x -> node_kind x = Some (KConst v) -> recompute_body fuel n s = maybe_change_value fuel n v s.
Proof.
  intros Hx Hk. unfold recompute_body. by rewrite (bind_eq _ _ _ _ _ (get_node_eq _ _ _ Hx)), Hk.
Qed.

(* maybe_change_value stores the value it is given — whether or not the cutoff suppresses the change —
   before anything is propagated *)
Lemma mcv_stores fuel n v s x b s1 :
  nodes s !! n = Some x ->
  match n_value x with
  | None => b = true /\ s1 = s <| nodes := alter (fun y => y <| n_value := None |>) n (nodes s) |>
  | Some o => should_cutoff n (n_cutoff x) o v (s <| nodes := alter (fun y => y <| n_value := None |>) n (nodes s) |>) = (Ok (negb b), s1)
  end ->
  maybe_change_value fuel n v s =
    maybe_change_value_manual fuel n (n_value x) b true
      (s1 <| nodes := alter (fun y => y <| n_value := Some v |>) n (nodes s1) |>).
Proof.
  intros Hx Hc. unfold maybe_change_value. rewrite (bind_eq _ _ _ _ _ (get_node_eq _ _ _ Hx)), bind_upd_node.
  destruct (n_value x) as [o|].
  - unfold bindM at 1. by rewrite (bind_eq _ _ _ _ _ Hc), negb_involutive.
  - by destruct Hc as [-> ->].
Qed.
