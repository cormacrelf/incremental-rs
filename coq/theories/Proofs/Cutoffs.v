(* C06: cutoffs gate propagation. *)
From stdpp Require Import base list option numbers.
From RecordUpdate Require Import RecordUpdate.
From Incr.Model Require Import Base Live Engine Api.
From Incr.Proofs Require Import Pres FrameChg.
Local Open Scope Z_scope.

(* ---- what each cutoff kind answers *)
Lemma should_cutoff_never n o v s : should_cutoff n CNever o v s = (Ok false, s).
Proof. done. Qed.
Lemma should_cutoff_always n o v s : should_cutoff n CAlways o v s = (Ok true, s).
Proof. done. Qed.
Lemma should_cutoff_eq n o v s : should_cutoff n CPartialEq o v s = (Ok (val_eqb o v), s).
Proof. done. Qed.

(* a function cutoff (fn or boxed closure) is consulted once, with (old, new) in that order, and its
   answer is used *)
Lemma should_cutoff_fn n cid o v s r s' :
  should_cutoff n (CFn cid) o v s = (Ok r, s') \/ should_cutoff n (CBoxed cid) o v s = (Ok r, s') ->
  r = cut_sem cid o v /\ events s' = EvCut n o v r :: events s /\ inv_count s' = S (inv_count s)
  /\ nodes s' = nodes s.
Proof.
  unfold should_cutoff, user_call, bindM, modify, get, ret, panic, emit. cbv beta iota. simpl.
  case_bool_decide as Hc; intros [Hr|Hr]; by simplify_eq.
Qed.

(* ---- a suppressed result stops here: changed_at does not move, no dependant is touched *)
Lemma mcv_manual_suppressed fuel n old run_cc s :
  maybe_change_value_manual fuel n old false run_cc s = (Ok None, s).
Proof. done. Qed.


Lemma mcv_suppressed fuel n v s x o s1 :
  nodes s !! n = Some x -> n_value x = Some o ->
  should_cutoff n (n_cutoff x) o v (s <| nodes := alter (fun y => y <| n_value := None |>) n (nodes s) |>) = (Ok true, s1) ->
  maybe_change_value fuel n v s = (Ok None, s1 <| nodes := alter (fun y => y <| n_value := Some v |>) n (nodes s1) |>).
Proof.
  intros Hn Ho Hc. unfold maybe_change_value.
  rewrite (bind_eq _ _ _ _ _ (get_node_eq n s x Hn)). rewrite Ho.
  rewrite bind_upd_node.
  erewrite bind_eq.
  2:{ rewrite (bind_eq _ _ _ _ _ Hc). reflexivity. }
  rewrite bind_upd_node. done.
Qed.

(* ---- an unsuppressed result stamps the node: changed_at becomes the current stabilisation number,
   which is what makes a dependant that has not run since stale *)
Lemma mcv_manual_changed fuel n old run_cc s r s' x :
  nodes s !! n = Some x ->
  maybe_change_value_manual fuel n old true run_cc s = (Ok r, s') ->
  exists x', nodes s' !! n = Some x' /\ n_changed_at x' = stab_num s.
Proof.
  intros Hn H. unfold maybe_change_value_manual in H. cbn [negb] in H.
  apply bind_ok in H as ([] & s1 & E1 & H). unfold stamp_node, modify in E1. injection E1 as <-.
  eassert (Rchg _ s') as [_ P] by (eapply pres_run; [|exact H]; go).
  destruct (P n (x <| n_changed_at := stab_num s |>)) as (x' & Hx' & Hc).
  { simpl. rewrite list_lookup_alter, Hn. done. }
  exists x'. done.
Qed.

(* is_stale, spelled out: a node with a function is stale exactly when it never ran or some input
   changed (was stamped) after it last ran *)
Lemma is_stale_spec s x :
  n_valid x = true ->
  match n_kind x with KVar _ | KConst _ | KExpert _ => False | _ => True end ->
  is_stale s x = bool_decide (n_recomputed_at x = -1)
                 || existsb (fun c => match nodes s !! c with
                                      | Some cx => bool_decide (n_recomputed_at x < n_changed_at cx)
                                      | None => false end) (children_of s x).
Proof. intros Hv Hk. unfold is_stale, node_kind, stale_wrt_child. rewrite Hv. destruct (n_kind x); done. Qed.
