(* consequences for whole histories started from a fresh state; each part says for which builds *)
From stdpp Require Import base list option numbers.
From RecordUpdate Require Import RecordUpdate.
From Incr.Model Require Import Base Live Engine Api.
From Incr.Proofs Require Import Pres RchInv FrameRchInv FrameNoHeapPanic Stamps FrameStampsOk FrameStamped RchMin FrameRchMin OkPres HeapNeeded FrameHeapNec HeapValid FrameHeapValid HeightLimit FrameHeightLimit ForcePin FrameForcePin HandlerCount FrameHandlerCount.

Lemma history_rch_inv fuel max_height ops :
  Forall (fun e => rch_inv e.2) (run_history fuel max_height true ops).
Proof.
  unfold run_history.
  pose proof (run_rch_inv fuel ops (IState []) (init_state max_height true) eq_refl (rch_inv_init _ _)) as H.
  eapply Forall_impl; [|exact H]. intros e [He _]. exact He.
Qed.

Lemma history_no_heap_panic fuel max_height ops :
  Forall (fun e => forall t, e.1.1 = Panic t -> Qri t) (run_history fuel max_height true ops).
Proof. unfold run_history. apply run_no_heap_panic. split; [done|apply rch_inv_init]. Qed.

(* ---- timestamps (all builds) *)

Lemma history_stamps_ok fuel max_height dbg ops :
  Forall (fun e => stamps_ok e.2) (run_history fuel max_height dbg ops).
Proof. unfold run_history. apply run_stamps_ok. apply stamps_ok_init. Qed.

(* recompute_one stamps its node first; whatever happens next (including a panic), the node is still
   stamped with the current stabilisation number when it is over *)
Lemma recompute_one_stamps fuel n s x :
  nodes s !! n = Some x ->
  let s' := (recompute_one fuel n s).2 in
  stab_num s' = stab_num s /\ exists x', nodes s' !! n = Some x' /\ n_recomputed_at x' = stab_num s'.
Proof.
  intros Hn. rewrite recompute_one_eq.
  match goal with |- context [recompute_body fuel n ?s0] => set (s3 := s0) end.
  destruct (now_recompute_body fuel n s3) as [T H].
  cbv zeta. split; [rewrite T; done|].
  destruct (H n (x <| n_recomputed_at := stab_num s |>)) as (x' & Hx' & Hr).
  - subst s3. simpl. rewrite list_lookup_alter, Hn. done.
  - done.
  - exists x'. split; [done|]. rewrite Hr, T. done.
Qed.

(* ... and is therefore not stale: nothing that has been stamped so far is later than it *)
Lemma recompute_one_not_stale fuel n s x :
  stamps_ok s -> nodes s !! n = Some x ->
  let s' := (recompute_one fuel n s).2 in
  exists x', nodes s' !! n = Some x' /\
    (match node_kind x' with Some (KExpert _) => True | _ => is_stale s' x' = false end).
Proof.
  intros Hok Hn. destruct (recompute_one_stamps fuel n s x Hn) as (T & x' & Hx' & Hr).
  cbv zeta in *. exists x'. split; [done|].
  assert (stamps_ok (recompute_one fuel n s).2) as Hok' by (by apply (ok_recompute_one fuel n s)).
  pose proof (stamped_now_not_stale _ n x' Hok' Hx' Hr) as P.
  destruct (node_kind x') as [[]|]; try done; by apply P.
Qed.

(* once stamped in the current stabilisation, a node stays stamped — and not stale — through the rest of
   the propagation phase *)
Lemma stamped_rest_of_propagation fuel s n x :
  stamps_ok s -> nodes s !! n = Some x -> n_recomputed_at x = stab_num s ->
  let s' := (stabilise_loop fuel s).2 in
  stamps_ok s' /\ stab_num s' = stab_num s /\
  exists x', nodes s' !! n = Some x' /\ n_recomputed_at x' = stab_num s' /\
    (match node_kind x' with Some (KExpert _) => True | _ => is_stale s' x' = false end).
Proof.
  intros Hok Hn Hr. cbv zeta.
  assert (stamps_ok (stabilise_loop fuel s).2) as Hok' by (by apply (ok_stabilise_loop fuel s)).
  destruct (now_stabilise_loop fuel s) as [T H]. destruct (H n x Hn Hr) as (x' & Hx' & Hr').
  split; [done|]. split; [done|]. exists x'. rewrite <- T in Hr'. split_and!; [done|done|].
  pose proof (stamped_now_not_stale _ n x' Hok' Hx' Hr') as P.
  destruct (node_kind x') as [[]|]; try done; by apply P.
Qed.

(* ---- the heap's counter and lower bound (debug builds) *)

Lemma history_rch_extra fuel max_height ops :
  Forall (fun e => rch_inv e.2 /\ rch_extra e.2) (run_history fuel max_height true ops).
Proof.
  unfold run_history.
  pose proof (run_rch_extra fuel ops (IState []) (init_state max_height true) eq_refl (rch_inv_init _ _) (rch_extra_init _ _)) as H.
  eapply Forall_impl; [|exact H]. intros e (H1 & H2 & _). done.
Qed.

(* ---- the heap holds necessary nodes only (debug builds, up to the first failing operation) *)

Lemma history_heap_needed fuel max_height ops :
  while_ok (run_history fuel max_height true ops) (HNx []).
Proof. unfold run_history. apply run_heap_needed. apply heap_only_init. Qed.

(* what the stabilise loop takes out of a heap that holds P-nodes only is a P-node *)
Lemma popped_node_holds (P : node -> bool) s n s' :
  heap_only P [] s -> rch_inv s -> rch_extra s ->
  rch_remove_min s = (Ok (Some n), s') ->
  exists x, nodes s !! n = Some x /\ P x = true.
Proof.
  intros [Hd A] Hi Hx E. destruct (rch_remove_min_is_min s (Some n) s' Hd Hi Hx E) as (x & Hn & Hpos & _).
  exists x. split; [done|]. destruct (A n x Hn Hpos) as [|Hin]; [done|]. by apply elem_of_nil in Hin.
Qed.
Lemma popped_node_is_necessary s n s' :
  HNx [] s -> rch_inv s -> rch_extra s ->
  rch_remove_min s = (Ok (Some n), s') ->
  exists x, nodes s !! n = Some x /\ is_necessary x = true.
Proof. apply (popped_node_holds is_necessary). Qed.

(* ---- the heap holds valid nodes only (debug builds, up to the first failing operation) *)

Lemma history_heap_valid fuel max_height ops :
  while_ok (run_history fuel max_height true ops) (VNx []).
Proof. unfold run_history. apply run_heap_valid. apply heap_only_init. Qed.

(* ... so the stabilise loop never recomputes an invalid node *)
Lemma popped_node_is_valid s n s' :
  VNx [] s -> rch_inv s -> rch_extra s ->
  rch_remove_min s = (Ok (Some n), s') ->
  exists x, nodes s !! n = Some x /\ n_valid x = true.
Proof. apply (popped_node_holds n_valid). Qed.

(* ---- heights stay within the limit (all builds, up to the first failing operation) *)

Lemma history_height_limit fuel N dbg ops : (0 <= N)%Z ->
  while_ok (run_history fuel N dbg ops) HL.
Proof. intros HN. unfold run_history. apply run_height_limit. by apply HL_init. Qed.

(* ---- the force_necessary pin (all builds, up to the first failing operation) *)

Lemma history_no_pin fuel max_height dbg ops :
  while_ok (run_history fuel max_height dbg ops) (FNx []).
Proof. unfold run_history. apply run_no_pin. apply FNx_init. Qed.

Lemma no_pin_necessary s n x : FNx [] s -> nodes s !! n = Some x ->
  is_necessary x = negb (bool_decide (n_parents x = [])) || negb (bool_decide (n_observers x = [])).
Proof.
  intros A Hx. unfold is_necessary. destruct (n_force_necessary x) eqn:Hf; [|by rewrite orb_false_r].
  specialize (A n x Hx Hf). by apply elem_of_nil in A.
Qed.

(* ---- the handler counter (debug builds, up to the first failing operation) *)

Lemma history_handler_count fuel max_height ops :
  while_ok (run_history fuel max_height true ops) HCd.
Proof. unfold run_history. apply run_handler_count. apply HCd_init. Qed.
