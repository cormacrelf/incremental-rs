(* C16: the per-key operators of incremental-map (Model/Engine.v perkey_step). *)
From stdpp Require Import base list option numbers sorting.
From RecordUpdate Require Import RecordUpdate.
From Incr.Model Require Import Base Live Engine Api.
From Incr.Model Require SymDiff.
From Incr.Proofs Require Import Pres FramePkPrev SortedMaps SymDiffProofs.

(* ---- the difference the closure iterates over *)
Definition zsorted (m : list (Z * Z)) : Prop := StronglySorted (fun a b => (a.1 < b.1)%Z) m.

(* what a difference element says about the two lookups *)
Definition diff_ok (a b : list (Z * Z)) (k : Z) (d : dkind) : Prop :=
  match d with
  | DLeft => is_Some (zm_get k a) /\ zm_get k b = None
  | DRight => zm_get k a = None /\ is_Some (zm_get k b)
  | DUnequal => exists v1 v2, zm_get k a = Some v1 /\ zm_get k b = Some v2 /\ v1 <> v2
  end.

(* The engine's zm_diff is the symmetric diff specified in Model/SymDiff.v with the values dropped,
   and zm_get is that model's lookup: what SymDiffProofs.v says of diff_spec carries over. *)
Definition dkind_of (e : SymDiff.diff_elem Z) : dkind :=
  match e with SymDiff.DLeft _ => DLeft | SymDiff.DRight _ => DRight | SymDiff.DUnequal _ _ => DUnequal end.

Lemma zm_diff_aux_eq fuel : forall a b, length a + length b <= fuel ->
  zm_diff_aux fuel a b = prod_map id dkind_of <$> SymDiff.diff_spec a b.
Proof.
  induction fuel as [|f IH]; intros [|[k1 v1] a] [|[k2 v2] b] Hlen; simpl in Hlen; try lia; try done;
    cbn [zm_diff_aux]; rewrite !IH by (simpl; lia).
  - by rewrite diff_spec_nil_l.
  - by rewrite diff_spec_nil_r.
  - cbn [SymDiff.diff_spec]. by repeat case_bool_decide.
Qed.

Lemma zm_get_assoc k m : zm_get k m = SymDiff.assoc_get m k.
Proof. induction m as [|[k' v] m IH]; [done|]. simpl. by rewrite IH. Qed.

Lemma keys_sorted {V} (m : list (Z * V)) :
  StronglySorted Z.lt m.*1 -> StronglySorted (fun a b => (a.1 < b.1)%Z) m.
Proof.
  induction m as [|x m IH]; [constructor|]. rewrite fmap_cons. intros [Hs Hx]%StronglySorted_inv.
  constructor; [by apply IH|]. exact (proj1 (Forall_fmap _ _ _) Hx).
Qed.

Lemma zm_diff_spec a b : zsorted a -> zsorted b ->
  (forall k d, (k, d) ∈ zm_diff a b -> diff_ok a b k d)
  /\ (forall k, zm_get k a <> zm_get k b -> exists d, (k, d) ∈ zm_diff a b)
  /\ StronglySorted (fun x y => (x.1 < y.1)%Z) (zm_diff a b).
Proof.
  intros Ha Hb. apply (StronglySorted_fmap fst _ Z.lt) in Ha, Hb; [|done..].
  unfold zm_diff. rewrite zm_diff_aux_eq by done.
  pose proof (diff_spec_sorted a b Ha Hb) as Hs.
  assert (forall k, _) as H by exact (fun k => diff_sides a b k Ha Hb).
  split_and!.
  - intros k d ([k' e] & [= -> ->] & Hin%elem_get)%elem_of_list_fmap; [|done].
    specialize (H k'). rewrite Hin in H. unfold diff_ok. rewrite !zm_get_assoc.
    destruct H as (-> & -> & Hne), e; naive_solver.
  - intros k Hne. rewrite !zm_get_assoc in Hne. specialize (H k).
    destruct (SymDiff.assoc_get (SymDiff.diff_spec a b) k) as [e|] eqn:E; [|done].
    exists (dkind_of e). apply (elem_of_list_fmap_1 (prod_map id dkind_of) _ (k, e)), get_Some_elem, E.
  - apply (StronglySorted_fmap _ (fun x y => (x.1 < y.1)%Z)); [done|]. by apply keys_sorted.
Qed.

(* after a successful pass of the closure the remembered input is the new input *)
Lemma perkey_step_sync fuel pk new s s' :
  perkey_step fuel pk new s = (Ok tt, s') -> exists r, perkeys s' !! pk = Some r /\ pk_prev r = new.
Proof.
  intros (r0 & s0 & E0 & ([] & s1 & E1 & [= <-])%bind_ok)%bind_ok.
  unfold get_perkey in E0. rewrite bind_get in E0. destruct (perkeys s !! pk) eqn:Hr0; [|done].
  injection E0 as -> <-.
  assert (Rpk s s1) as R by (eapply pres_run; [|exact E1]; go).
  apply (f_equal (.!! pk)) in R.
  rewrite !list_lookup_fmap, Hr0 in R. simpl in *. rewrite list_lookup_alter.
  destruct (perkeys s1 !! pk); [|done]. by eexists.
Qed.
