(* C19: no node is ever higher than the greatest height seen, which never exceeds the greatest height
   allowed (all builds, as long as nothing panicked). *)
From stdpp Require Import base list option numbers.
From RecordUpdate Require Import RecordUpdate.
From Incr.Model Require Import Base Live Engine Api.
From Incr.Proofs Require Import OkPres Steps.

Definition HL (s : state) : Prop :=
  (0 <= ahh_max_seen s)%Z /\ (ahh_max_seen s <= ahh_max_allowed s)%Z
  /\ forall n x, nodes s !! n = Some x -> (n_height x <= ahh_max_seen s)%Z.

Lemma HL_same s s' : nodes s' = nodes s -> ahh_max_seen s' = ahh_max_seen s -> length (ahh_queues s') = length (ahh_queues s) ->
  HL s -> HL s'.
Proof.
  intros H1 H2 H3 (A & B & C). unfold HL, ahh_max_allowed, zlen in *. rewrite H1, H2, H3. done.
Qed.

Lemma HL_alter s s' m f : nodes s' = alter f m (nodes s) -> ahh_max_seen s' = ahh_max_seen s ->
  length (ahh_queues s') = length (ahh_queues s) ->
  (forall x, n_height (f x) = n_height x) -> HL s -> HL s'.
Proof.
  intros H1 H2 H3 Hf (A & B & C). unfold HL, ahh_max_allowed, zlen in *. rewrite H1, H2, H3. split_and!; [done|done|].
  intros n x (y & Hy & [[<- ->]|[_ ->]])%lookup_alter_Some; [rewrite Hf|]; by eapply C.
Qed.

Lemma HL_app s s' k sc : nodes s' = nodes s ++ [new_node k sc] -> ahh_max_seen s' = ahh_max_seen s ->
  length (ahh_queues s') = length (ahh_queues s) -> HL s -> HL s'.
Proof.
  intros H1 H2 H3 (A & B & C). unfold HL, ahh_max_allowed, zlen in *. rewrite H1, H2, H3. split_and!; [done|done|].
  intros n x [Hx|[_ ->]]%lookup_snoc_Some; [by eapply C|]. simpl. lia.
Qed.

Lemma HL_collect pins s : HL s -> HL (collect pins s).2.
Proof.
  intros (A & B & C). split_and!; [done|done|]. simpl.
  intros n x (y & Hy & [->| ->])%lookup_sweep_Some; simpl; by eapply C.
Qed.

(* the two writers *)
Lemma hl_set_height n h : okp HL (set_height n h).
Proof.
  intros s u s' (A & B & C) E. unfold set_height in E. rewrite bind_get in E.
  case_bool_decide as Hseen; cbv [bindM ret upd_node modify] in E;
    [unfold ahh_max_allowed at 1 in E; simpl in E; case_bool_decide as Hlim; [done|]|];
    simplify_eq; unfold HL, ahh_max_allowed, zlen in *; simpl;
    (split_and!; [lia..|]); intros m x (y & Hy & [[<- ->]|[_ ->]])%lookup_alter_Some; simpl; try lia;
    specialize (C _ _ Hy); lia.
Qed.

Lemma resize_length {A} (l : list A) n d : length (resize l n d) = n.
Proof. unfold resize. rewrite app_length, take_length, replicate_length. lia. Qed.

Lemma hl_ahh_set_max m : okp HL (ahh_set_max_height_allowed m).
Proof.
  intros s u s' (A & B & C) E. unfold ahh_set_max_height_allowed in E. rewrite bind_get in E.
  case_bool_decide as Hlow; [done|]. rewrite bind_ret, bind_dassert_state in E. destruct (_ && _); [done|].
  rewrite bind_dassert_state in E. destruct (_ && _); [done|]. injection E as _ <-.
  unfold HL, ahh_max_allowed, zlen in *. simpl. rewrite resize_length. split_and!; [done|lia|done].
Qed.

(* the remaining writes to the queues keep their number *)
Lemma HL_ahh_insert s s' i q : nodes s' = nodes s -> ahh_max_seen s' = ahh_max_seen s ->
  ahh_queues s' = <[i := q]> (ahh_queues s) -> HL s -> HL s'.
Proof. intros H1 H2 H3. apply HL_same; [done|done|]. by rewrite H3, insert_length. Qed.

Lemma HL_init N dbg : (0 <= N)%Z -> HL (init_state N dbg).
Proof.
  intros HN. unfold HL, ahh_max_allowed, zlen, init_state. simpl. rewrite replicate_length. split_and!; [done|lia|].
  intros n x Hx. done.
Qed.
