(* C05: the mechanisms that keep unneeded nodes out of the recompute heap. *)
From stdpp Require Import base list option numbers.
From RecordUpdate Require Import RecordUpdate.
From Incr.Model Require Import Base Live Engine Api.
From Incr.Proofs Require Import Steps RchInv.

(* 1. nothing queued: the propagation phase does nothing at all — no node is recomputed, no node
      function runs (debug builds, where the counter is known to be exact: C11) *)
Lemma nothing_queued_nothing_runs fuel s :
  rch_len s = 0%Z -> stabilise_loop (S fuel) s = (Ok tt, s).
Proof.
  intros H. cbn [stabilise_loop]. unfold rch_remove_min. unfold bindM at 1. rewrite bind_get, bool_decide_eq_true_2 by done. reflexivity.
Qed.

(* 2. writing a variable whose watch node is not needed queues nothing *)
Lemma unneeded_var_write_queues_nothing x s v w wn :
  vars s !! x = Some v -> v_node v = Some w -> nodes s !! w = Some wn -> is_necessary wn = false ->
  rch_queues (did_set_var_while_not_stabilising x s).2 = rch_queues s
  /\ rch_len (did_set_var_while_not_stabilising x s).2 = rch_len s.
Proof.
  intros Hv Hw Hn Hnec.
  assert (exists r s', did_set_var_while_not_stabilising x s = (r, s') /\ rch_queues s' = rch_queues s
                       /\ rch_len s' = rch_len s) as (r & s' & -> & ?); [|done].
  unfold did_set_var_while_not_stabilising.
  rewrite (bind_eq _ _ _ _ _ (get_var_eq _ _ _ Hv)), Hw, bind_modify, bind_gets.
  case_bool_decide; [|by eexists _, _]. unfold stamp_var. rewrite bind_modify.
  (* the debug assertion only reads *)
  match goal with |- context [bindM (dassert ?b ?k) _ ?st] =>
    assert (ro (dassert b k)) as Hro by (apply lg_dassert; [unfold get_node; repeat logic_step ltac:(exact I)|exact I]);
    unfold bindM at 1; rewrite (ro_run _ st Hro); destruct (dassert b k st).1 as [[]| |]; [|by eexists _, _..]
  end.
  cbv beta iota. rewrite bind_get_node. simpl. rewrite Hn, Hnec. by eexists _, _.
Qed.

(* 3. a node that stops being needed leaves the heap: when became_unnecessary returns, the node's cell
      says "not in the heap" *)
Lemma became_unnecessary_leaves_heap f n s s' :
  became_unnecessary (S f) n s = (Ok tt, s') ->
  exists x, nodes s' !! n = Some x /\ (n_height_in_rch x < 0)%Z.
Proof.
  intros H. cbn [became_unnecessary] in H.
  (* nine steps, whatever they do, then the node is looked at once more *)
  do 9 (apply bind_ok in H as (? & ? & _ & H)). rewrite bind_get_node in H.
  destruct (nodes _ !! n) as [xn|] eqn:Hx; [|done]. unfold in_rch in H. case_bool_decide as Hin.
  - (* rch_remove: the last write sets the cell to -1 *)
    unfold rch_remove in H. apply bind_ok in H as (? & s10 & _ & H). apply bind_ok in H as (? & s11 & Eu & H).
    destruct (rch_unlink_spec n s10) as [(x' & q & i & Hx' & _ & _ & _ & El)|(t & El & _)]; rewrite El in Eu; [|done].
    cbv [bindM upd_node modify] in H. simplify_eq. eexists. simpl. rewrite list_lookup_alter, Hx'. split; [done|]. simpl. lia.
  - injection H as <-. exists xn. split; [done|lia].
Qed.

(* 4. and check_if_unnecessary starts that cascade exactly for a node with no dependant, no observer and
      no pin *)
Lemma check_if_unnecessary_eq f n s x :
  nodes s !! n = Some x ->
  check_if_unnecessary (S f) n s =
    if is_necessary x then (Ok tt, s) else became_unnecessary f n s.
Proof.
  intros Hx. cbn [check_if_unnecessary]. rewrite bind_get_node, Hx. by destruct (is_necessary x).
Qed.
