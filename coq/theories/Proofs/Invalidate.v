(* C03: invalidation is effective and permanent. *)
From stdpp Require Import base list option numbers.
From RecordUpdate Require Import RecordUpdate.
From Incr.Model Require Import Base Live Engine Api.
From Incr.Proofs Require Import Pres OkPres FrameMono.

(* What Rmono keeps is kept by every engine function that returns.  The three facts below are of
   that kind; each proof walks to the one write that establishes the fact and leaves the rest of the
   function to [go]. *)
Lemma mono_okp (I : state -> Prop) {A} (m : M A) :
  (forall s s', Rmono s s' -> I s -> I s') -> pres Rmono m -> okp I m.
Proof. intros HI P s a s' Hs E. eapply HI; [|exact Hs]. by eapply pres_run. Qed.

Lemma exists_mono n s s' : Rmono s s' -> is_Some (nodes s !! n) -> is_Some (nodes s' !! n).
Proof. intros [_ H] [x Hx]. destruct (H n x Hx) as (x' & Hx' & _). by eexists. Qed.

Definition invalid_in (n : nid) (s : state) : Prop :=
  exists x, nodes s !! n = Some x /\ n_valid x = false.

Lemma invalid_mono n s s' : Rmono s s' -> invalid_in n s -> invalid_in n s'.
Proof.
  intros [_ H] (x & Hx & Hv). destruct (H n x Hx) as (x' & Hx' & _ & _ & Hv' & _).
  exists x'. auto.
Qed.

(* allocated, and invalid unless already freed *)
Definition settled (r : nid) (s : state) : Prop :=
  exists x, nodes s !! r = Some x /\ (n_live x = true -> n_valid x = false).

Lemma settled_mono r s s' : Rmono s s' -> settled r s -> settled r s'.
Proof.
  intros [_ H] (x & Hx & Hl). destruct (H r x Hx) as (x' & Hx' & _ & _ & Hv & Hlv).
  exists x'. split; [done|]. destruct (n_live x); [auto|]. by rewrite Hlv.
Qed.

(* if [invalidate_node] returns, the node is invalid *)
Lemma invalidate_node_post fuel n : okp2 (fun _ => True) (invalid_in n) (invalidate_node fuel n).
Proof.
  destruct fuel as [|f]; [done|]. intros s [] s' _ H. cbn [invalidate_node] in H.
  apply bind_ok in H as (x & ? & [-> Hn]%get_node_ok & H).
  destruct (n_valid x) eqn:Hv; [|injection H as <-; by exists x].
  revert H. refine ((_ : okp2 (fun s => is_Some (nodes s !! n)) _ _) s tt s' (mk_is_Some _ _ Hn)). cbn [negb].
  (* six steps that keep the node in the store; the seventh writes the flag *)
  do 6 (eapply okp2_bind; [apply mono_okp; [apply exists_mono|go]|intros ?]).
  eapply okp2_bind; [|intros ?; apply mono_okp; [apply invalid_mono|go]].
  intros s1 [] ? [y Hy] [= <-]. exists (y <| n_valid := false |>). simpl. by rewrite list_lookup_alter, Hy.
Qed.

(* every node of the list that is still allocated afterwards is invalid *)
Lemma invalidate_created_post fuel all r : r ∈ all ->
  okp2 (fun s => is_Some (nodes s !! r)) (settled r) (invalidate_nodes_created_on_rhs fuel all).
Proof.
  unfold invalidate_nodes_created_on_rhs. induction all as [|r0 all IH]; [by intros ?%elem_of_nil|].
  intros [->|Hr]%elem_of_cons; cbn [forM_].
  - eapply okp2_bind; [|intros ?; apply mono_okp; [apply settled_mono|go]].
    intros s [] s1 _ H. apply bind_ok in H as (rx & ? & [-> Hrx]%get_node_ok & H).
    destruct (n_live rx) eqn:Hl.
    + destruct (invalidate_node_post fuel r0 s tt s1 I H) as (y & Hy & Hv). exists y. done.
    + injection H as <-. exists rx. split; [done|congruence].
  - eapply okp2_bind; [apply mono_okp; [apply exists_mono|go]|intros ?; by apply IH].
Qed.

(* When the left-hand side of a bind changed and its closure runs again, every node created by the
   previous run that is still allocated is invalid once the lhs-change node has been recomputed. *)
Lemma superseded_run_invalidated fuel n s r s' x b bd old :
  nodes s !! n = Some x -> node_kind x = Some (KBindLhs b) ->
  binds s !! b = Some bd -> b_rhs bd = Some old ->
  recompute_one fuel n s = (Ok r, s') ->
  forall c, c ∈ b_created bd -> is_Some (nodes s !! c) ->
  forall y, nodes s' !! c = Some y -> n_live y = true -> n_valid y = false.
Proof.
  intros Hn Hk Hb Hold H c Hc Hex. rewrite recompute_one_eq in H. unfold recompute_body in H.
  erewrite bind_eq in H by (apply get_node_eq; simpl; by rewrite list_lookup_alter, Hn).
  change (node_kind (x <| n_recomputed_at := _ |>)) with (node_kind x) in H. rewrite Hk in H.
  erewrite bind_eq in H by apply get_bind_eq, Hb. rewrite Hold in H.
  cut (settled c s'); [intros (y & Hy & Hv) y' Hy'; by simplify_eq|].
  revert H. refine ((_ : okp2 (fun s => is_Some (nodes s !! c)) _ _) _ r s' _).
  2:{ apply lookup_lt_is_Some. simpl. rewrite alter_length. by apply lookup_lt_is_Some. }
  (* sixteen steps that keep c in the store; then the old generation is invalidated *)
  do 16 (eapply okp2_bind; [apply mono_okp; [apply exists_mono|go]|intros ?]).
  eapply okp2_bind; [|intros ?; apply mono_okp; [apply settled_mono|go]].
  eapply okp2_bind; [apply mono_okp; [apply exists_mono|go]|intros ?].
  eapply okp2_bind; [by apply invalidate_created_post|intros ?; apply mono_okp; [apply settled_mono|go]].
Qed.

(* an invalid node is never given to a node function: recomputing it panics instead *)
Lemma recompute_one_invalid fuel n s x : nodes s !! n = Some x -> n_valid x = false ->
  (recompute_one fuel n s).1 = Panic PRecomputeInvalid.
Proof.
  intros Hn Hv. rewrite recompute_one_eq. unfold recompute_body.
  erewrite bind_eq by (apply get_node_eq; simpl; by rewrite list_lookup_alter, Hn).
  unfold node_kind. simpl. by rewrite Hv.
Qed.
