(* C08: the variable write machine. *)
From stdpp Require Import base list option numbers.
From RecordUpdate Require Import RecordUpdate.
From Incr.Model Require Import Base Live Engine Api.
From Incr.Proofs Require Import Pres FrameVar FrameVarVal.

Definition pending_or_value (v : var) : val := default (v_value v) (v_pending v).

(* Outside Stabilising (that is: between stabilises, and inside update handlers) a write takes
   effect at once on the variable's value; what it returns — what replace / replace_with hand back —
   is the value before the write. *)
Lemma var_write_immediate x f s v r s' :
  st_status s <> Stabilising -> vars s !! x = Some v ->
  var_write x f s = (Ok r, s') ->
  r = v_value v
  /\ exists v', vars s' !! x = Some v' /\ v_value v' = f (v_value v) /\ v_pending v' = v_pending v.
Proof.
  intros Hst Hv. unfold var_write. unfold bindM at 1. unfold get_var, bindM at 1, get, ret. cbv beta iota.
  rewrite Hv. cbv beta iota. unfold bindM at 1, gets. cbv beta iota.
  assert (forall (k1 k2 : M val), match st_status s with
          | NotStabilising | RunningOnUpdateHandlers => k1 | Stabilising => k2 end = k1) as Hm
    by (intros; destruct (st_status s); done).
  rewrite Hm. clear Hm.
  unfold bindM at 1, upd_var at 1, modify at 1. cbv beta iota.
  set (s1 := s <| vars := alter (fun v0 => v0 <| v_value := f (v_value v) |>) x (vars s) |>).
  pose proof (var_did_set_var x s1) as [_ P].
  unfold bindM. destruct (did_set_var_while_not_stabilising x s1) as [[[]| |] s2] eqn:E; simpl in P; intros H; simplify_eq.
  split; [done|].
  destruct (P x (v <| v_value := f (v_value v) |>)) as (v' & Hv' & A1 & A2).
  { subst s1. simpl. rewrite list_lookup_alter, Hv. done. }
  exists v'. split; [done|]. simpl in *. split; congruence.
Qed.

(* Inside a node function (status Stabilising) a write only goes to the pending slot: the value every
   reader sees is untouched, the function gets back the pending value if there is one (so successive
   deferred writes compose in program order), and the variable is queued for the end of stabilise. *)
Lemma var_write_deferred x f s v :
  st_status s = Stabilising -> vars s !! x = Some v ->
  exists s', var_write x f s = (Ok (pending_or_value v), s')
    /\ vars s' !! x = Some (v <| v_pending := Some (f (pending_or_value v)) |>)
    /\ (forall y, y <> x -> vars s' !! y = vars s !! y)
    /\ st_status s' = Stabilising /\ nodes s' = nodes s
    /\ set_during s' = (if v_pending v then set_during s else set_during s ++ [x]).
Proof.
  intros Hst Hv. unfold var_write, get_var, bindM, get, gets, ret, upd_var, modify. cbv beta iota.
  rewrite Hv. cbv beta iota. rewrite Hst. cbv beta iota. unfold pending_or_value.
  destruct (v_pending v) eqn:Ep; cbv beta iota; simpl; eexists; (split; [reflexivity|]); simpl.
  all: split_and!; try done; [by rewrite list_lookup_alter, Hv|by intros y Hy; rewrite list_lookup_alter_ne].
Qed.

(* two deferred writes compose in program order *)
Lemma var_write_deferred_compose x f g s v s1 s2 r1 r2 :
  st_status s = Stabilising -> vars s !! x = Some v ->
  var_write x f s = (Ok r1, s1) -> var_write x g s1 = (Ok r2, s2) ->
  r2 = f (pending_or_value v)
  /\ exists v2, vars s2 !! x = Some v2 /\ v_value v2 = v_value v
                /\ v_pending v2 = Some (g (f (pending_or_value v))).
Proof.
  intros Hst Hv H1 H2.
  destruct (var_write_deferred x f s v Hst Hv) as (s1' & E1 & Hv1 & _ & Hst1 & _). rewrite E1 in H1. injection H1 as <- <-.
  destruct (var_write_deferred x g s1' _ Hst1 Hv1) as (s2' & E2 & Hv2 & _). rewrite E2 in H2. injection H2 as <- <-.
  split; [done|]. eexists. split; [exact Hv2|]. done.
Qed.

(* applying a deferred write at the end of stabilise: the per-variable body of the loop over
   set_during in stabilise_end_prepare (Api.v) *)
Definition apply_pending (x : vid) : M unit :=
  v <- get_var x ;;
  if negb (v_live v) then ret tt else
  match v_pending v with
  | None => ret tt
  | Some value => upd_var x (fun v => v <| v_pending := None |>) ;;; set_var_while_not_stabilising x value
  end.

Lemma apply_pending_spec x s v p s' :
  vars s !! x = Some v -> v_live v = true -> v_pending v = Some p ->
  apply_pending x s = (Ok tt, s') ->
  exists v', vars s' !! x = Some v' /\ v_value v' = p /\ v_pending v' = None.
Proof.
  intros Hv Hl Hp H. unfold apply_pending in H.
  rewrite (bind_eq _ _ _ _ _ (get_var_eq x s v Hv)) in H. rewrite Hl, Hp in H. cbn [negb] in H.
  apply bind_ok in H as ([] & s1 & E1 & H). unfold upd_var, modify in E1. injection E1 as <-.
  unfold set_var_while_not_stabilising in H.
  apply bind_ok in H as ([] & s2 & E2 & H). unfold upd_var, modify in E2. injection E2 as <-.
  match type of H with did_set_var_while_not_stabilising x ?s2 = _ => pose proof (var_did_set_var x s2) as [_ P] end.
  rewrite H in P. simpl in P.
  destruct (P x (v <| v_pending := None |> <| v_value := p |>)) as (v' & Hv' & A1 & A2).
  { simpl. rewrite !list_lookup_alter, Hv. done. }
  exists v'. split; [done|]. simpl in *. split; congruence.
Qed.

(* throughout the propagation phase of a stabilise no variable's value changes: every node function
   that reads a variable in this stabilise sees its pre-stabilise value, whatever is written meanwhile *)
Lemma propagation_keeps_var_values fuel s x v :
  st_status s = Stabilising -> vars s !! x = Some v ->
  exists v', vars (stabilise_loop fuel s).2 !! x = Some v' /\ v_value v' = v_value v.
Proof. intros Hst Hv. destruct (vv_stabilise_loop fuel s Hst) as [_ H]. exact (H x v Hv). Qed.

(* ... and a var node's recompute reads exactly that value *)
Lemma var_node_reads_value fuel n s x xn v :
  nodes s !! n = Some xn -> node_kind xn = Some (KVar x) -> vars s !! x = Some v ->
  exists s1, recompute_one fuel n s = maybe_change_value fuel n (v_value v) s1
             /\ vars s1 = vars s.
Proof.
  intros Hn Hk Hv. rewrite recompute_one_eq. unfold recompute_body.
  erewrite bind_eq by (apply get_node_eq; simpl; by rewrite list_lookup_alter, Hn).
  change (node_kind (xn <| n_recomputed_at := _ |>)) with (node_kind xn). rewrite Hk.
  erewrite bind_eq by apply get_var_eq, Hv.
  eexists. split; [reflexivity|done].
Qed.
