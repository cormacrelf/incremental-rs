(* A small program logic for the engine monad: [pres R m] says that running [m] from any state
   ends (whatever the outcome: value, panic, out of fuel) in a state related by R.  For a preorder
   R this composes through bind (it is a [Logic]), so frame and monotonicity facts about the whole
   engine are obtained function by function. *)
From stdpp Require Import base list option numbers.
From RecordUpdate Require Import RecordUpdate.
From Incr.Model Require Import Base Live Engine Api.
From Incr.Proofs Require Export Logic Steps.

Definition pres (R : relation state) {A} (m : M A) : Prop := forall s, R s (m s).2.

Global Instance pres_logic (R : relation state) `{!PreOrder R} : Logic (@pres R) (fun _ => True).
Proof.
  split; try (intros; intros s; reflexivity).
  intros A B m k Hm Hk s. unfold bindM. specialize (Hm s).
  destruct (m s) as [[a| |] s'] eqn:E; simpl in *; [|done|done].
  etrans; [exact Hm|]. apply Hk.
Qed.

Section rules.
Context (R : relation state) `{!PreOrder R}.
Lemma pres_modify f : (forall s, R s (f s)) -> pres R (modify f).
Proof. intros H s. apply H. Qed.
Lemma pres_emit e : (forall s, R s (s <| events := e :: events s |>)) -> pres R (emit e).
Proof. intros H. apply pres_modify. done. Qed.
End rules.

Lemma pres_run {A} R (m : M A) s r s' : pres R m -> m s = (r, s') -> R s s'.
Proof. intros P E. specialize (P s). by rewrite E in P. Qed.
Lemma pres_weaken {A} (R R' : relation state) (m : M A) : (forall s s', R s s' -> R' s s') -> pres R m -> pres R' m.
Proof. intros H P s. apply H, P. Qed.

(* ---- relations that compare two stores entry by entry: most of the relations the frames are stated
   for say "every entry of this store is still there, and related to what it was by P".  They spell
   this out instead of using [lifted], so its lemmas apply to their conjuncts up to conversion. *)
Definition lifted {A} (P : relation A) : relation (list A) :=
  fun l l' => forall i x, l !! i = Some x -> exists x', l' !! i = Some x' /\ P x x'.

Lemma lifted_refl {A} (P : relation A) l : (forall x, P x x) -> lifted P l l.
Proof. intros HP i x Hx. by exists x. Qed.
Lemma lifted_trans {A} (P : relation A) l1 l2 l3 :
  (forall x y z, P x y -> P y z -> P x z) -> lifted P l1 l2 -> lifted P l2 l3 -> lifted P l1 l3.
Proof.
  intros HP H1 H2 i x Hx. destruct (H1 i x Hx) as (y & Hy & Hxy). destruct (H2 i y Hy) as (z & Hz & Hyz).
  exists z. eauto.
Qed.
Lemma lifted_alter {A} (P : relation A) f n l : (forall x, P x x) -> (forall x, P x (f x)) -> lifted P l (alter f n l).
Proof.
  intros Hr Hf i x Hx. destruct (decide (n = i)) as [->|Hne].
  - exists (f x). by rewrite list_lookup_alter, Hx.
  - exists x. by rewrite list_lookup_alter_ne.
Qed.
Lemma lifted_app {A} (P : relation A) l k : (forall x, P x x) -> lifted P l (l ++ k).
Proof. intros Hr i x Hx. exists x. by rewrite lookup_app_l by (by eapply lookup_lt_Some). Qed.
Lemma lifted_imap {A} (P : relation A) g l : (forall i x, P x (g i x)) -> lifted P l (imap g l).
Proof. intros Hg i x Hx. exists (g i x). by rewrite list_lookup_imap, Hx. Qed.
Lemma fmap_alter_same {A B} (g : A -> B) (f : A -> A) i (l : list A) :
  (forall x, g (f x) = g x) -> g <$> alter f i l = g <$> l.
Proof.
  intros Hf. apply list_eq. intros j. rewrite !list_lookup_fmap. destruct (decide (i = j)) as [->|Hne].
  - rewrite list_lookup_alter. destruct (l !! j); simpl; [by rewrite Hf|done].
  - by rewrite list_lookup_alter_ne.
Qed.
Lemma fmap_imap_same {A B} (g : A -> B) (f : nat -> A -> A) (l : list A) :
  (forall i x, g (f i x) = g x) -> g <$> imap f l = g <$> l.
Proof.
  intros Hf. apply list_eq. intros j. rewrite !list_lookup_fmap, list_lookup_imap.
  destruct (l !! j); simpl; [by rewrite Hf|done].
Qed.

(* An elementary write, judged conjunct by conjunct for such a relation: a field the write leaves
   alone, a counter that moves the right way, or a store compared with itself, with one entry altered,
   extended, or swept by [collect].  [entry] proves P of an entry and what the write makes of it. *)
Ltac pointwise entry :=
  unfold collect, stamp_node, stamp_var, upd_node, upd_bind, upd_var, upd_obs, upd_expert, upd_edge, upd_perkey, emit, modify;
  hnf; split_and?; simpl;
  lazymatch goal with
  | |- forall _, _ =>
      first [ apply lifted_refl; intros ?; entry
            | apply lifted_alter; intros ?; entry
            | apply lifted_app; intros ?; entry
            | apply lifted_imap; intros ? ?; simpl; case_bool_decide; entry ]
  | |- _ <$> _ = _ <$> _ =>
      first [ reflexivity
            | apply fmap_alter_same; intros ?; reflexivity
            | apply fmap_imap_same; intros ? ?; simpl; case_bool_decide; reflexivity ]
  | |- _ = _ => first [reflexivity | assumption]
  | |- _ => lia
  end.

Lemma run_pres (R : relation state) `{!PreOrder R} fuel :
  (forall s, R s (s <| events := [] |>)) -> (forall s, R s (end_of_op s)) ->
  (forall st o, pres R (step fuel st o)) ->
  forall ops st s, Forall (fun e => R s e.2) (run fuel ops st s).
Proof.
  intros H0 H2 H1 ops st s. apply (run_invariant (R s)); [|reflexivity].
  intros st' o s' Hs. etrans; [exact Hs|]. etrans; [apply H0|]. etrans; [apply H1|apply H2].
Qed.
