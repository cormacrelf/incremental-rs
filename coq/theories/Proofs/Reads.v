(* C07: what an observer read depends on, and which operations leave it alone. *)
From stdpp Require Import base list option numbers.
From RecordUpdate Require Import RecordUpdate.
From Incr.Model Require Import Base Live Engine Api.
From Incr.Proofs Require Import Pres FrameRead.

(* the value a node shows (map_ref reads through to its input) only depends on the value, validity
   and kind of existing nodes *)
Lemma node_value_frame s s' :
  (forall n x, nodes s !! n = Some x -> exists x', nodes s' !! n = Some x' /\ node_val_same x x') ->
  forall fuel n, is_Some (nodes s !! n) -> node_value fuel s' n = node_value fuel s n.
Proof.
  intros H fuel. induction fuel as [|f IH]; intros n [x Hx]; [done|]. simpl.
  destruct (H n x Hx) as (x' & Hx' & Hv & Hva & Hk). rewrite Hx, Hx'.
  unfold node_kind. rewrite Hva, Hk, Hv.
  destruct (n_valid x); [|done]. destruct (n_kind x); try done.
  case_bool_decide as Hlt; [|done]. f_equal. apply IH.
  apply lookup_lt_is_Some. apply lookup_lt_Some in Hx. lia.
Qed.

Definition read_result (s : state) (o : oid) : res (val + Z) := (observer_read o s).1.

Lemma observer_read_eq o s ob :
  obss s !! o = Some ob ->
  observer_read o s =
    (Ok (match st_status s with
         | Stabilising => inr ERR_CURRENTLY_STABILISING
         | _ => match o_state ob with
                | OCreated => inr ERR_NEVER_STABILISED
                | OInUse => match node_value (S (o_observing ob)) s (o_observing ob) with
                            | Some v => inl v | None => inr ERR_OBSERVING_INVALID end
                | ODisallowed | OUnlinked => inr ERR_DISALLOWED
                end
         end), s).
Proof.
  intros Ho. unfold observer_read, get_obs, value_of, bindM, get, gets, ret. cbv beta iota. rewrite Ho.
  cbv beta iota. destruct (st_status s), (o_state ob); done.
Qed.

(* FrameRead.Rread, except that one observer [t] may have been touched *)
Definition RreadX (t : oid) : relation state := fun s s' =>
  st_status s' = st_status s
  /\ (forall n x, nodes s !! n = Some x -> exists x', nodes s' !! n = Some x' /\ node_val_same x x')
  /\ (forall o ob, o <> t -> obss s !! o = Some ob -> exists ob', obss s' !! o = Some ob' /\ obs_read_same ob ob').
Global Instance RreadX_preorder t : PreOrder (RreadX t).
Proof.
  split.
  - intros s. split_and!; try done; intros; eexists; done.
  - intros a b c (S1&H1&O1) (S2&H2&O2). split_and!; try congruence.
    + intros n x Hx. destruct (H1 n x Hx) as (x' & Hx' & A1 & A2 & A3).
      destruct (H2 n x' Hx') as (x'' & Hx'' & B1 & B2 & B3). exists x''. split; [done|]. split_and!; congruence.
    + intros o ob Hne Ho. destruct (O1 o ob Hne Ho) as (ob' & Ho' & A1 & A2).
      destruct (O2 o ob' Hne Ho') as (ob'' & Ho'' & B1 & B2). exists ob''. split; [done|]. split; congruence.
Qed.
Lemma Rread_RreadX t s s' : Rread s s' -> RreadX t s s'.
Proof. intros (H1&H2&H3). split_and!; try done. intros o ob _. apply H3. Qed.

Lemma read_hnode_get st h : pres Rread (hnode_get st h). Proof. frame w_hnode_get. Qed.
Global Hint Resolve read_hnode_get : frame.

Lemma RreadX_upd_obs t f s : RreadX t s (s <| obss := alter f t (obss s) |>).
Proof.
  split_and!; try done.
  - intros n x Hx. exists x. done.
  - intros o ob Hne Ho. exists ob. simpl. rewrite list_lookup_alter_ne by done. done.
Qed.

(* a walk for RreadX o: a part that Rread covers is weakened; what is left is a write to observer o *)
Local Ltac readx o :=
  repeat first
    [ logic_step ltac:(exact I)
    | apply (pres_weaken Rread (RreadX o)); [apply Rread_RreadX|solve [go]]
    | apply (pres_modify (RreadX o)); intros ?; apply RreadX_upd_obs ].

(* disallowing an observer touches only that observer *)
Lemma readx_disallow o : pres (RreadX o) (disallow_future_use o).
Proof. unfold disallow_future_use. readx o. Qed.

Definition is_lifecycle_op_on (o : oid) (op : op) : bool :=
  match op with
  | OpDisallow o' | OpDropObs o' => bool_decide (o' = o)
  | _ => false
  end.

(* the observer a lifecycle op acts on, if any *)
Definition op_target (op : op) : option oid :=
  match op with OpDisallow o | OpDropObs o => Some o | _ => None end.

Lemma step_readx fuel st op : op <> OpStabilise -> expert_op op = false ->
  match op_target op with
  | Some t => pres (RreadX t) (step fuel st op)
  | None => pres Rread (step fuel st op)
  end.
Proof.
  intros Hns Hne. destruct op; try done; simpl.
  all: try (unfold step; solve [go]).
  - (* OpDropObs o *)
    unfold step. repeat first [apply readx_disallow | progress readx o].
  - (* OpDisallow o *)
    unfold step.
    repeat first [ logic_step ltac:(exact I) | apply readx_disallow ].
Qed.

(* a new observer reads NeverStabilised *)
Lemma observe_read fuel st h s st' o s' :
  step fuel st (OpObserve h) s = (Ok (st', OutObs o), s') -> st_status s <> Stabilising ->
  read_result s' o = Ok (inr ERR_NEVER_STABILISED).
Proof.
  cbn [step]. unfold hnode_get, observe, bindM, get, ret, panic, modify. cbv beta iota.
  destruct (handles s !! h) as [[n|]|]; cbv beta iota; intros H Hst; simplify_eq.
  unfold read_result. erewrite observer_read_eq.
  2:{ simpl. rewrite lookup_app_r by lia. rewrite Nat.sub_diag. reflexivity. }
  simpl. destruct (st_status s); done.
Qed.
