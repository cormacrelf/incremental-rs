(* Timestamps never run ahead of the clock.

   Every write of `recomputed_at`, `changed_at` (node.rs) and `set_at` (var.rs) stores the stabilisation
   number current at the moment of the write (stamp_node / stamp_var in the model), and the clock only
   moves forward.  Two relations on states capture this; FrameStampsOk.v and FrameStamped.v show that every engine function respects them.

   Consequence used by C02: a node stamped as recomputed in the current stabilisation is not stale. *)
From stdpp Require Import base list option numbers.
From RecordUpdate Require Import RecordUpdate.
From Incr.Model Require Import Base Live Engine Api.
From Incr.Proofs Require Import Steps.

Definition node_stamps_le (T : Z) (x : node) : Prop :=
  (n_recomputed_at x <= T)%Z /\ (n_changed_at x <= T)%Z.

Definition stamps_ok (s : state) : Prop :=
  (0 <= stab_num s)%Z
  /\ (forall n x, nodes s !! n = Some x -> node_stamps_le (stab_num s) x)
  /\ (forall v x, vars s !! v = Some x -> (v_set_at x <= stab_num s)%Z).

(* ---- Rok: the clock does not go back, and stamps_ok is kept *)
Definition Rok : relation state := fun s s' =>
  (stab_num s <= stab_num s')%Z /\ (stamps_ok s -> stamps_ok s').
Global Instance Rok_preorder : PreOrder Rok.
Proof.
  split.
  - intros s. split; [lia|done].
  - intros a b c [T1 H1] [T2 H2]. split; [lia|auto].
Qed.

Lemma Rok_same s s' : stab_num s' = stab_num s -> nodes s' = nodes s -> vars s' = vars s -> Rok s s'.
Proof.
  intros H0 H1 H2. split; [lia|]. intros (A & B & C). unfold stamps_ok. rewrite H0, H1, H2. done.
Qed.
Lemma Rok_alter s s' n f : stab_num s' = stab_num s -> vars s' = vars s -> nodes s' = alter f n (nodes s) ->
  (forall x, node_stamps_le (stab_num s) x -> node_stamps_le (stab_num s) (f x)) -> Rok s s'.
Proof.
  intros H0 H2 H1 Hf. split; [lia|]. intros (A & B & C). unfold stamps_ok. rewrite H0, H1, H2.
  split_and!; [done| |done]. intros m x (y & Hy & [[<- ->]|[_ ->]])%lookup_alter_Some; [apply Hf|]; by eapply B.
Qed.
Lemma Rok_app s s' k sc : stab_num s' = stab_num s -> vars s' = vars s -> nodes s' = nodes s ++ [new_node k sc] -> Rok s s'.
Proof.
  intros H0 H2 H1. split; [lia|]. intros (A & B & C). unfold stamps_ok. rewrite H0, H1, H2.
  split_and!; [done| |done]. intros m x [Hx|[_ ->]]%lookup_snoc_Some; [by eapply B|].
  unfold node_stamps_le, new_node. simpl. lia.
Qed.
Lemma Rok_alter_var s s' v f : stab_num s' = stab_num s -> nodes s' = nodes s -> vars s' = alter f v (vars s) ->
  (forall x, (v_set_at x <= stab_num s)%Z -> (v_set_at (f x) <= stab_num s)%Z) -> Rok s s'.
Proof.
  intros H0 H1 H2 Hf. split; [lia|]. intros (A & B & C). unfold stamps_ok. rewrite H0, H1, H2.
  split_and!; [done|done|]. intros m x (y & Hy & [[<- ->]|[_ ->]])%lookup_alter_Some; [apply Hf|]; by eapply C.
Qed.
Lemma Rok_app_var s s' x : stab_num s' = stab_num s -> nodes s' = nodes s -> vars s' = vars s ++ [x] ->
  v_set_at x = stab_num s -> Rok s s'.
Proof.
  intros H0 H1 H2 Hx. split; [lia|]. intros (A & B & C). unfold stamps_ok. rewrite H0, H1, H2.
  split_and!; [done|done|]. intros m y [Hy|[_ ->]]%lookup_snoc_Some; [by eapply C|lia].
Qed.
(* the clock moves on *)
Lemma Rok_tick s s' : stab_num s' = (stab_num s + 1)%Z -> nodes s' = nodes s -> vars s' = vars s -> Rok s s'.
Proof.
  intros H0 H1 H2. split; [lia|]. intros (A & B & C). unfold stamps_ok. rewrite H0, H1, H2.
  split_and!; [lia| |].
  - intros n x Hx. destruct (B n x Hx). unfold node_stamps_le. lia.
  - intros v x Hx. specialize (C v x Hx). lia.
Qed.
Lemma Rok_collect pins s : Rok s (collect pins s).2.
Proof.
  split; [simpl; lia|]. intros (A & B & C). unfold stamps_ok. simpl. split_and!; [done| |].
  - intros n x (y & Hy & [->| ->])%lookup_sweep_Some; exact (B _ _ Hy).
  - intros v x (y & Hy & [->| ->])%lookup_sweep_Some; exact (C _ _ Hy).
Qed.

(* ---- Rnow: within one stabilisation number, a node stamped as recomputed now stays stamped *)
Definition Rnow : relation state := fun s s' =>
  stab_num s' = stab_num s
  /\ forall n x, nodes s !! n = Some x -> n_recomputed_at x = stab_num s ->
       exists x', nodes s' !! n = Some x' /\ n_recomputed_at x' = stab_num s.
Global Instance Rnow_preorder : PreOrder Rnow.
Proof.
  split.
  - intros s. split; [done|]. intros n x Hx Hr. exists x. done.
  - intros a b c [T1 H1] [T2 H2]. split; [congruence|]. intros n x Hx Hr.
    destruct (H1 n x Hx Hr) as (x' & Hx' & A). rewrite <- T1 in A.
    destruct (H2 n x' Hx' A) as (x'' & Hx'' & B). exists x''. split; [done|congruence].
Qed.
Lemma Rnow_same s s' : stab_num s' = stab_num s -> nodes s' = nodes s -> Rnow s s'.
Proof. intros H0 H. split; [done|]. rewrite H. intros n x Hx Hr. exists x. done. Qed.
Lemma Rnow_alter s s' n f : stab_num s' = stab_num s -> nodes s' = alter f n (nodes s) ->
  (forall x, n_recomputed_at x = stab_num s -> n_recomputed_at (f x) = stab_num s) -> Rnow s s'.
Proof.
  intros H0 H Hf. split; [done|]. rewrite H. intros m x Hx Hr. destruct (decide (n = m)) as [->|Hne].
  - exists (f x). rewrite list_lookup_alter, Hx. split; [done|by apply Hf].
  - exists x. rewrite list_lookup_alter_ne by done. done.
Qed.
Lemma Rnow_app s s' l : stab_num s' = stab_num s -> nodes s' = nodes s ++ l -> Rnow s s'.
Proof.
  intros H0 H. split; [done|]. rewrite H. intros n x Hx Hr. exists x.
  rewrite lookup_app_l by (by eapply lookup_lt_Some). done.
Qed.
Lemma Rnow_collect pins s : Rnow s (collect pins s).2.
Proof.
  split; [done|]. intros n x Hx Hr. simpl. eexists. rewrite list_lookup_imap, Hx. simpl.
  split; [done|]. case_bool_decide; done.
Qed.

(* ---- what the stamps mean for staleness *)
Lemma stamped_now_not_stale_wrt_child s x :
  stamps_ok s -> n_recomputed_at x = stab_num s -> stale_wrt_child s x = false.
Proof.
  intros (A & B & C) Hr. unfold stale_wrt_child. apply not_true_is_false. intros H.
  apply existsb_exists in H as (c & _ & H). destruct (nodes s !! c) as [cx|] eqn:Hcx; [|done].
  apply bool_decide_eq_true in H. destruct (B c cx Hcx) as [_ H']. lia.
Qed.

Lemma stamped_now_not_stale s n x :
  stamps_ok s -> nodes s !! n = Some x -> n_recomputed_at x = stab_num s ->
  match node_kind x with Some (KExpert _) => False | _ => True end ->
  is_stale s x = false.
Proof.
  intros Hok Hx Hr Hk. unfold is_stale. pose proof (stamped_now_not_stale_wrt_child s x Hok Hr) as Hc.
  destruct Hok as (A & B & C). destruct (node_kind x) as [[]|]; try done.
  all: try (rewrite Hc; rewrite bool_decide_eq_false_2 by lia; done).
  all: try (apply bool_decide_eq_false_2; lia).
  (* a variable's watch node *)
  match goal with |- match vars s !! ?v with _ => _ end = _ => destruct (vars s !! v) as [vr|] eqn:Hv; [|done] end.
  apply bool_decide_eq_false_2. specialize (C _ _ Hv). lia.
Qed.

(* an expert node stamped now is stale only because it was asked to run again (make_stale, or an edge
   was added or removed) *)
Lemma stamped_now_expert_stale s n x e ex :
  stamps_ok s -> nodes s !! n = Some x -> n_recomputed_at x = stab_num s ->
  node_kind x = Some (KExpert e) -> experts s !! e = Some ex ->
  is_stale s x = ex_force_stale ex.
Proof.
  intros Hok Hx Hr Hk He. unfold is_stale. rewrite Hk, He, (stamped_now_not_stale_wrt_child s x Hok Hr).
  destruct Hok as (A & _). rewrite (bool_decide_eq_false_2 (n_recomputed_at x = (-1)%Z)) by lia.
  by destruct (ex_force_stale ex).
Qed.

Lemma stamps_ok_init max_height dbg : stamps_ok (init_state max_height dbg).
Proof. split_and!; [done| |]; intros ? ? H; done. Qed.
