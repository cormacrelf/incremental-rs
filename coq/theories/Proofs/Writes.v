(* The elementary writes of the engine: every [modify], [upd_*], [stamp_*], [emit] and [collect] that
   occurs in Model/Engine.v and Model/Api.v (and the clearing of the event buffer between the
   operations of a history, in [run]), each once, under a name that says which field it writes
   (and how, where one field is written in several ways that some invariant tells apart).  Proofs/Walk.v
   reduces any compositional judgment about an engine function to the same judgment about these. *)
From stdpp Require Import base list option numbers.
From RecordUpdate Require Import RecordUpdate.
From Incr.Model Require Import Base Live Engine Api.
Local Open Scope Z_scope.

Inductive wid :=
  | Wevents | Winv_count | Wcrash_at | Wnum_became_necessary | Wnum_became_unnecessary | Wnum_invalidated
  | Wnum_var_sets | Wnum_changed | Wnum_active_observers | Whandles | Wexports | Wexports_clear | Wdep_slots
  | Wevents_clear
  | Wcollect
  | Wn_height_in_rch | Wrch_push | Wrch_swap_remove | Wrch_pop | Wrch_resize
  | Wrch_lower | Wrch_lower_incr | Wrch_lower_top | Wrch_lower_min | Wrch_len_incr | Wrch_len_decr
  | Wn_height_in_ahh | Wahh_resize | Wahh_push | Wahh_pop | Wahh_len_incr | Wahh_len_decr | Wahh_lower
  | Wahh_max_seen | Wn_height
  | Wn_cix_pad | Wn_cix | Wn_pix_pad | Wn_pix | Wn_pix_swap | Wn_parents_push | Wn_parents_swap_remove
  | Wnode_new | Wn_cutoff | Wn_valid_false | Wn_value_none | Wn_value_some | Wn_value_none_mapref
  | Wn_mapref_true | Wn_mapref_or | Wn_force_necessary_true | Wn_force_necessary_false
  | Wstamp_invalidate | Wstamp_changed | Wstamp_recomputed | Wrecompute_count | Wcur_running_none
  | Wprop_inv_push | Wprop_inv_pop
  | Wn_in_has_true | Wn_in_has_false | Whas_push | Whas_clear | Wrun_ouh_push | Wrun_ouh_clear
  | Wn_num_handlers_incr | Wn_num_handlers_decr | Wn_handler_new | Wn_handler_prev
  | Wo_next_token | Wo_handler_new | Wo_handler_remove | Wo_handler_prev | Wrunning_obs
  | Wbind_new | Wb_nodes | Wb_created_clear | Wb_created_push | Wb_gen | Wb_rhs | Wcur_scope
  | Wmemo_new | Wmemo_store
  | Wvar_new | Wstamp_set_at | Wv_value | Wv_pending_some | Wv_pending_self | Wv_pending_none | Wv_node_none
  | Wv_handles | Wset_during_push | Wset_during_clear | Wdead_vars_push | Wdead_vars_clear
  | Wobs_new | Wnew_obs_clear | Wall_obs_push | Wall_obs_remove | Wdisallowed_clear | Wdisallowed_push
  | Wo_inuse | Wo_unlinked | Wo_unlinked_clear | Wo_disallowed | Wn_observer_link | Wn_observer_unlink
  | Wo_handles_incr | Wo_handles_decr
  | Wexpert_new | Wedge_new | Wed_seen | Wed_index | Wex_unobserved | Wex_invalid_incr | Wex_invalid_decr
  | Wex_force_stale | Wex_child_push | Wex_child_pop | Wex_child_swap | Wex_ran
  | Wperkey_new | Wpk_acc_del | Wpk_acc_set | Wpk_nodes_del | Wpk_nodes_add | Wpk_prev
  | Wstatus_stabilising | Wstatus_handlers | Wstatus_idle | Wstab_num.

Inductive write : wid -> M unit -> Prop :=
  | w_events : `(write Wevents (emit e))
  | w_events_clear : write Wevents_clear (modify (fun s => s <| events := [] |>))
  | w_inv_count : write Winv_count (modify (fun s => s <| inv_count := S (inv_count s) |>))
  | w_crash_at : `(write Wcrash_at (modify (fun s => s <| crash_at := Some (inv_count s + k)%nat |>)))
  | w_num_became_necessary :
      write Wnum_became_necessary (modify (fun s => s <| num_became_necessary := num_became_necessary s + 1 |>))
  | w_num_became_unnecessary :
      write Wnum_became_unnecessary (modify (fun s => s <| num_became_unnecessary := num_became_unnecessary s + 1 |>))
  | w_num_invalidated : write Wnum_invalidated (modify (fun s => s <| num_invalidated := num_invalidated s + 1 |>))
  | w_num_var_sets : write Wnum_var_sets (modify (fun s => s <| num_var_sets := num_var_sets s + 1 |>))
  | w_num_changed : write Wnum_changed (modify (fun s => s <| num_changed := num_changed s + 1 |>))
  | w_num_active_observers :
      write Wnum_active_observers (modify (fun s => s <| num_active_observers := num_active_observers s - 1 |>))
  | w_handles_push : `(write Whandles (modify (fun s => s <| handles := handles s ++ [Some n] |>)))
  | w_handles_drop : `(write Whandles (modify (fun s => s <| handles := <[h := None]> (handles s) |>)))
  | w_exports : `(write Wexports (modify (fun s => s <| exports := exports s ++ [n] |>)))
  | w_exports_clear : write Wexports_clear (modify (fun s => s <| exports := [] |>))
  | w_dep_slots : `(write Wdep_slots (modify (fun s =>
      s <| dep_slots := <[sl := v]> (dep_slots s ++ replicate (S sl - length (dep_slots s)) None) |>)))

  | w_collect : `(write Wcollect (collect pins))

  | w_n_height_in_rch : `(write Wn_height_in_rch (upd_node n (fun x => x <| n_height_in_rch := h |>)))
  | w_rch_push : `(write Wrch_push (modify (fun s =>
      s <| rch_queues := <[Z.to_nat h := q ++ [n]]> (rch_queues s) |>)))
  | w_rch_swap_remove : `(write Wrch_swap_remove (modify (fun s =>
      s <| rch_queues := <[Z.to_nat h := swap_remove q i]> (rch_queues s) |>)))
  | w_rch_pop : `(write Wrch_pop (modify (fun s =>
      s <| rch_queues := <[Z.to_nat (rch_lower s) := q']> (rch_queues s) |>)))
  | w_rch_resize : `(write Wrch_resize (modify (fun s =>
      s <| rch_queues := resize (rch_queues s) (Z.to_nat (new_max + 1)) [] |>)))
  | w_rch_lower : `(write Wrch_lower (modify (fun s => s <| rch_lower := h |>)))
  | w_rch_lower_incr : write Wrch_lower_incr (modify (fun s => s <| rch_lower := rch_lower s + 1 |>))
  | w_rch_lower_top : write Wrch_lower_top (modify (fun s => s <| rch_lower := zlen (rch_queues s) |>))
  | w_rch_lower_min :
      write Wrch_lower_min (modify (fun s => s <| rch_lower := Z.min (rch_lower s) (zlen (rch_queues s) + 1) |>))
  | w_rch_len_incr : write Wrch_len_incr (modify (fun s => s <| rch_len := rch_len s + 1 |>))
  | w_rch_len_decr : write Wrch_len_decr (modify (fun s => s <| rch_len := rch_len s - 1 |>))

  | w_n_height_in_ahh : `(write Wn_height_in_ahh (upd_node n (fun x => x <| n_height_in_ahh := h |>)))
  | w_ahh_resize : `(write Wahh_resize (modify (fun s =>
      s <| ahh_queues := resize (ahh_queues s) (Z.to_nat (new_max + 1)) [] |>)))
  | w_ahh_push : `(write Wahh_push (modify (fun s =>
      s <| ahh_queues := <[Z.to_nat h := q ++ [n]]> (ahh_queues s) |>)))
  | w_ahh_pop : `(write Wahh_pop (modify (fun s => s <| ahh_queues := <[Z.to_nat h := q']> (ahh_queues s) |>)))
  | w_ahh_len_incr : write Wahh_len_incr (modify (fun s => s <| ahh_len := ahh_len s + 1 |>))
  | w_ahh_len_decr : write Wahh_len_decr (modify (fun s => s <| ahh_len := ahh_len s - 1 |>))
  | w_ahh_lower : `(write Wahh_lower (modify (fun s => s <| ahh_lower := h |>)))
  | w_ahh_max_seen : `(write Wahh_max_seen (modify (fun s => s <| ahh_max_seen := h |>)))
  | w_n_height : `(write Wn_height (upd_node n (fun x => x <| n_height := h |>)))

  | w_n_cix_pad : `(write Wn_cix_pad (upd_node child (fun c =>
      c <| n_cix_in_parent := zset (pad_to (n_cix_in_parent c) pi (-1)) pi ci |>)))
  | w_n_cix : `(write Wn_cix (upd_node child (fun c => c <| n_cix_in_parent := zset (n_cix_in_parent c) i v |>)))
  | w_n_pix_pad : `(write Wn_pix_pad (upd_node parent (fun p =>
      p <| n_pix_in_child := zset (pad_to (n_pix_in_child p) ci (-1)) ci pi |>)))
  | w_n_pix : `(write Wn_pix (upd_node parent (fun p => p <| n_pix_in_child := zset (n_pix_in_child p) i v |>)))
  | w_n_pix_swap : `(write Wn_pix_swap (upd_node n (fun p =>
      p <| n_pix_in_child := zset (zset (n_pix_in_child p) ci1 i2) ci2 i1 |>)))
  | w_n_parents_push : `(write Wn_parents_push (upd_node child (fun c => c <| n_parents := n_parents c ++ [parent] |>)))
  | w_n_parents_swap_remove : `(write Wn_parents_swap_remove (upd_node child (fun c =>
      c <| n_parents := swap_remove (n_parents c) (Z.to_nat pi) |>)))

  | w_node_new : `(write Wnode_new (modify (fun s =>
      s <| num_created := num_created s + 1 |> <| nodes := nodes s ++ [new_node k (cur_scope s)] |>)))
  | w_n_cutoff : `(write Wn_cutoff (upd_node n (fun x => x <| n_cutoff := c |>)))
  | w_n_valid_false : `(write Wn_valid_false (upd_node n (fun x => x <| n_valid := false |>)))
  | w_n_value_none : `(write Wn_value_none (upd_node n (fun x => x <| n_value := None |>)))
  | w_n_value_some : `(write Wn_value_some (upd_node n (fun x => x <| n_value := Some v |>)))
  | w_n_value_none_mapref : `(write Wn_value_none_mapref (upd_node n (fun x =>
      x <| n_value := None |> <| n_mapref_did_change := false |>)))
  | w_n_mapref_true : `(write Wn_mapref_true (upd_node n (fun x => x <| n_mapref_did_change := true |>)))
  | w_n_mapref_or : `(write Wn_mapref_or (upd_node p (fun x =>
      x <| n_mapref_did_change := n_mapref_did_change x || did_change |>)))
  | w_n_force_necessary_true :
      `(write Wn_force_necessary_true (upd_node n (fun x => x <| n_force_necessary := true |>)))
  | w_n_force_necessary_false :
      `(write Wn_force_necessary_false (upd_node n (fun x => x <| n_force_necessary := false |>)))
  | w_stamp_invalidate : `(write Wstamp_invalidate (stamp_node n (fun st x =>
      x <| n_value := None |> <| n_changed_at := st |> <| n_recomputed_at := st |>)))
  | w_stamp_changed : `(write Wstamp_changed (stamp_node n (fun st x => x <| n_changed_at := st |>)))
  | w_stamp_recomputed : `(write Wstamp_recomputed (stamp_node n (fun st x => x <| n_recomputed_at := st |>)))
  | w_recompute_count : `(write Wrecompute_count (modify (fun s =>
      s <| num_recomputed := num_recomputed s + 1 |> <| cur_running := if debug s then Some n else cur_running s |>)))
  | w_cur_running_none : write Wcur_running_none (modify (fun s => s <| cur_running := None |>))
  | w_prop_inv_push : `(write Wprop_inv_push (modify (fun s => s <| prop_inv := prop_inv s ++ [p] |>)))
  | w_prop_inv_pop : write Wprop_inv_pop (modify (fun s => s <| prop_inv := removelast (prop_inv s) |>))

  | w_n_in_has_true : `(write Wn_in_has_true (upd_node n (fun x => x <| n_in_has := true |>)))
  | w_n_in_has_false : `(write Wn_in_has_false (upd_node n (fun x => x <| n_in_has := false |>)))
  | w_has_push : `(write Whas_push (modify (fun s => s <| has_stack := has_stack s ++ [n] |>)))
  | w_has_clear : write Whas_clear (modify (fun s => s <| has_stack := [] |>))
  | w_run_ouh_push : `(write Wrun_ouh_push (modify (fun s => s <| run_ouh := run_ouh s ++ [(n, nu)] |>)))
  | w_run_ouh_clear : write Wrun_ouh_clear (modify (fun s => s <| run_ouh := [] |>))
  | w_n_num_handlers_incr :
      `(write Wn_num_handlers_incr (upd_node n (fun x => x <| n_num_handlers := n_num_handlers x + 1 |>)))
  | w_n_num_handlers_decr :
      `(write Wn_num_handlers_decr (upd_node n (fun x => x <| n_num_handlers := n_num_handlers x - 1 |>)))
  | w_n_handler_new : `(write Wn_handler_new (upd_node n (fun x =>
      x <| n_num_handlers := n_num_handlers x + 1 |> <| n_handlers := n_handlers x ++ [Handler 0 h PNever now] |>)))
  | w_n_handler_prev : `(write Wn_handler_prev (upd_node n (fun x =>
      x <| n_handlers := alter (fun h => h <| hd_prev := match nu with
                                                          | NUChanged => PChanged
                                                          | NUNecessary => PNecessary
                                                          | NUInvalidated => PInvalidated
                                                          | NUUnnecessary => PUnnecessary
                                                          end |>) hix (n_handlers x) |>)))
  | w_o_next_token : `(write Wo_next_token (upd_obs o (fun ob => ob <| o_next_token := token + 1 |>)))
  | w_o_handler_new : `(write Wo_handler_new (upd_obs o (fun ob =>
      ob <| o_handlers := o_handlers ob ++ [Handler token h PNever now] |>)))
  | w_o_handler_remove : `(write Wo_handler_remove (upd_obs o (fun ob =>
      ob <| o_handlers := filter (fun h => hd_token h ≠ tok) (o_handlers ob) |>)))
  | w_o_handler_prev : `(write Wo_handler_prev (upd_obs o (fun ob =>
      ob <| o_handlers := alter (fun h => h <| hd_prev := match nu with
                                                           | NUChanged => PChanged
                                                           | NUNecessary => PNecessary
                                                           | NUInvalidated => PInvalidated
                                                           | NUUnnecessary => PUnnecessary
                                                           end |>) hix (o_handlers ob) |>)))
  | w_running_obs : `(write Wrunning_obs (modify (fun s => s <| running_obs := r |>)))

  | w_bind_new : `(write Wbind_new (modify (fun s => s <| binds := binds s ++ [Bind lhs f None 0 0 [] 0 true] |>)))
  | w_b_nodes : `(write Wb_nodes (upd_bind b (fun bd => bd <| b_lhs_change := lc |> <| b_main := main |>)))
  | w_b_created_clear : `(write Wb_created_clear (upd_bind b (fun bd => bd <| b_created := [] |>)))
  | w_b_created_push : `(write Wb_created_push (upd_bind b (fun bd => bd <| b_created := b_created bd ++ [n] |>)))
  | w_b_gen : `(write Wb_gen (upd_bind b (fun bd => bd <| b_gen := b_gen bd + 1 |>)))
  | w_b_rhs : `(write Wb_rhs (upd_bind b (fun bd => bd <| b_rhs := Some rhs |>)))
  | w_cur_scope : `(write Wcur_scope (modify (fun s => s <| cur_scope := sc |>)))
  | w_memo_new : `(write Wmemo_new (modify (fun s => s <| memos := memos s ++ [Memo (cur_scope s) body r []] |>)))
  | w_memo_store : `(write Wmemo_store (modify (fun s =>
      s <| memos := alter (fun mm => mm <| m_table := assoc_set key n (m_table mm) |>) m (memos s) |>)))

  | w_var_new : `(write Wvar_new (modify (fun s =>
      s <| vars := vars s ++ [Var v None (stab_num s) (Some n) n 1 true] |>)))
  | w_stamp_set_at : `(write Wstamp_set_at (stamp_var x (fun st v => v <| v_set_at := st |>)))
  | w_v_value : `(write Wv_value (upd_var x (fun v => v <| v_value := a |>)))
  | w_v_pending_some : `(write Wv_pending_some (upd_var x (fun v => v <| v_pending := Some a |>)))
  | w_v_pending_self : `(write Wv_pending_self (upd_var x (fun v => v <| v_pending := Some (f (v_value v)) |>)))
  | w_v_pending_none : `(write Wv_pending_none (upd_var x (fun v => v <| v_pending := None |>)))
  | w_v_node_none : `(write Wv_node_none (upd_var x (fun v => v <| v_node := None |>)))
  | w_v_handles : `(write Wv_handles (upd_var x (fun v => v <| v_handles := pred (v_handles v) |>)))
  | w_set_during_push : `(write Wset_during_push (modify (fun s => s <| set_during := set_during s ++ [x] |>)))
  | w_set_during_clear : write Wset_during_clear (modify (fun s => s <| set_during := [] |>))
  | w_dead_vars_push : `(write Wdead_vars_push (modify (fun s => s <| dead_vars := dead_vars s ++ [x] |>)))
  | w_dead_vars_clear : write Wdead_vars_clear (modify (fun s => s <| dead_vars := [] |>))

  | w_obs_new : `(write Wobs_new (modify (fun s =>
      s <| obss := obss s ++ [Obs OCreated n [] 1 1 true] |>
        <| num_active_observers := num_active_observers s + 1 |> <| new_obs := new_obs s ++ [o] |>)))
  | w_new_obs_clear : write Wnew_obs_clear (modify (fun s => s <| new_obs := [] |>))
  | w_all_obs_push : `(write Wall_obs_push (modify (fun s => s <| all_obs := all_obs s ++ [o] |>)))
  | w_all_obs_remove : `(write Wall_obs_remove (modify (fun s => s <| all_obs := remove_from_list o (all_obs s) |>)))
  | w_disallowed_clear : write Wdisallowed_clear (modify (fun s => s <| disallowed_obs := [] |>))
  | w_disallowed_push : `(write Wdisallowed_push (modify (fun s =>
      s <| num_active_observers := num_active_observers s - 1 |> <| disallowed_obs := disallowed_obs s ++ [o] |>)))
  | w_o_inuse : `(write Wo_inuse (upd_obs o (fun ob => ob <| o_state := OInUse |>)))
  | w_o_unlinked : `(write Wo_unlinked (upd_obs o (fun ob => ob <| o_state := OUnlinked |>)))
  | w_o_unlinked_clear : `(write Wo_unlinked_clear (upd_obs o (fun ob =>
      ob <| o_state := OUnlinked |> <| o_handlers := [] |>)))
  | w_o_disallowed : `(write Wo_disallowed (upd_obs o (fun ob => ob <| o_state := ODisallowed |>)))
  | w_n_observer_link : `(write Wn_observer_link (upd_node n (fun x =>
      x <| n_observers := n_observers x ++ [o] |> <| n_num_handlers := n_num_handlers x + zlen (o_handlers ob) |>)))
  | w_n_observer_unlink : `(write Wn_observer_unlink (upd_node n (fun x =>
      x <| n_observers := remove_from_list o (n_observers x) |>
        <| n_num_handlers := n_num_handlers x - zlen (o_handlers ob) |>)))
  | w_o_handles_incr : `(write Wo_handles_incr (upd_obs o (fun ob => ob <| o_handles := S (o_handles ob) |>)))
  | w_o_handles_decr : `(write Wo_handles_decr (upd_obs o (fun ob => ob <| o_handles := pred (o_handles ob) |>)))

  | w_expert_new : `(write Wexpert_new (modify (fun s => s <| experts := experts s ++ [x] |>)))
  | w_edge_new : `(write Wedge_new (modify (fun s => s <| edges := edges s ++ [ed] |>)))
  | w_ed_seen : `(write Wed_seen (upd_edge e (fun ed => ed <| ed_seen := Some v |>)))
  | w_ed_index : `(write Wed_index (upd_edge e (fun d => d <| ed_index := i |>)))
  | w_ex_unobserved : `(write Wex_unobserved (upd_expert x (fun ex =>
      ex <| ex_fire_all := true |> <| ex_num_invalid := 0 |>)))
  | w_ex_invalid_incr : `(write Wex_invalid_incr (upd_expert e (fun ex =>
      ex <| ex_num_invalid := ex_num_invalid ex + 1 |>)))
  | w_ex_invalid_decr : `(write Wex_invalid_decr (upd_expert e (fun ex =>
      ex <| ex_num_invalid := ex_num_invalid ex - 1 |>)))
  | w_ex_force_stale : `(write Wex_force_stale (upd_expert e (fun ex => ex <| ex_force_stale := true |>)))
  | w_ex_child_push : `(write Wex_child_push (upd_expert e (fun ex =>
      ex <| ex_children := ex_children ex ++ [eid] |> <| ex_force_stale := true |>)))
  | w_ex_child_pop : `(write Wex_child_pop (upd_expert x (fun ex =>
      ex <| ex_children := removelast (ex_children ex) |> <| ex_force_stale := true |>)))
  | w_ex_child_swap : `(write Wex_child_swap (upd_expert x (fun ex =>
      ex <| ex_children := zset (zset (ex_children ex) one b) two a |>)))
  | w_ex_ran : `(write Wex_ran (upd_expert e (fun ex => ex <| ex_force_stale := false |> <| ex_fire_all := false |>)))
  | w_perkey_new : `(write Wperkey_new (modify (fun s =>
      s <| perkeys := perkeys s ++ [PerKey result lhs_change [] [] [] (handles_bindfn (handles s) f) c flt] |>)))
  | w_pk_acc_del : `(write Wpk_acc_del (upd_perkey pk (fun r => r <| pk_acc := zm_del key (pk_acc r) |>)))
  | w_pk_acc_set : `(write Wpk_acc_set (upd_perkey pk (fun r => r <| pk_acc := zm_set key v (pk_acc r) |>)))
  | w_pk_nodes_del : `(write Wpk_nodes_del (upd_perkey pk (fun r =>
      r <| pk_nodes := filter (fun kx => kx.1 <> key) (pk_nodes r) |>)))
  | w_pk_nodes_add : `(write Wpk_nodes_add (upd_perkey pk (fun r =>
      r <| pk_nodes := (key, (nd, dep)) :: pk_nodes r |>)))
  | w_pk_prev : `(write Wpk_prev (upd_perkey pk (fun r => r <| pk_prev := new |>)))

  | w_status_stabilising : write Wstatus_stabilising (modify (fun s => s <| st_status := Stabilising |>))
  | w_status_handlers : write Wstatus_handlers (modify (fun s => s <| st_status := RunningOnUpdateHandlers |>))
  | w_status_idle : write Wstatus_idle (modify (fun s => s <| st_status := NotStabilising |>))
  | w_stab_num : write Wstab_num (modify (fun s => s <| stab_num := stab_num s + 1 |>)).
