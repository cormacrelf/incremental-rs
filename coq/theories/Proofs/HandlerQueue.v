(* C09: a node that changed is queued for its update handlers.

   `handle_after_stabilisation` (node.rs:947) pushes a node on the state's stack once, guarded by the
   node's `is_in_handle_after_stabilisation` flag; the stack is emptied at the end of the stabilisation,
   where each node still alive is turned into a (node, report) pair for the handlers.

   has_inv: every live node whose flag is set is on the stack, and the stack only names existing nodes.
   Rhas: the invariant is kept and the stack only grows (everything except the end of a stabilisation).
   Rhi: the invariant is kept (everything). *)
From stdpp Require Import base list option numbers.
From RecordUpdate Require Import RecordUpdate.
From Incr.Model Require Import Base Live Engine Api.
From Incr.Proofs Require Import Pres.

Definition has_inv (s : state) : Prop :=
  (forall n x, nodes s !! n = Some x -> n_live x = true -> n_in_has x = true -> n ∈ has_stack s)
  /\ (forall n, n ∈ has_stack s -> is_Some (nodes s !! n)).

Definition Rhas : relation state := fun s s' =>
  (has_inv s -> has_inv s') /\ (forall n, n ∈ has_stack s -> n ∈ has_stack s').
Global Instance Rhas_preorder : PreOrder Rhas.
Proof.
  split; [intros s; split; [intros H; exact H|intros n H; exact H]|]. intros a b c [H1 G1] [H2 G2]. split; [auto|]. intros n Hn. auto.
Qed.

Definition Rhi : relation state := fun s s' => has_inv s -> has_inv s'.
Global Instance Rhi_preorder : PreOrder Rhi.
Proof. split; [intros s H; exact H|]. intros a b c H1 H2 Hi. auto. Qed.

Lemma Rhi_of_Rhas s s' : Rhas s s' -> Rhi s s'.
Proof. intros [H _]. exact H. Qed.

Lemma Rhas_same s s' : nodes s' = nodes s -> has_stack s' = has_stack s -> Rhas s s'.
Proof. intros H1 H2. unfold Rhas, has_inv. rewrite H1, H2. done. Qed.

Lemma Rhas_alter s s' n f : has_stack s' = has_stack s -> nodes s' = alter f n (nodes s) ->
  (forall x, n_live (f x) = true -> n_in_has (f x) = true -> n_live x = true /\ n_in_has x = true) -> Rhas s s'.
Proof.
  intros H2 H1 Hf. unfold Rhas. rewrite H2. split; [|done]. intros [A B]. unfold has_inv. rewrite H1, H2. split.
  - intros m x (y & Hy & [[<- ->]|[_ ->]])%lookup_alter_Some Hl Hh; [destruct (Hf y Hl Hh)|]; by eapply A.
  - intros m Hm. apply lookup_lt_is_Some. rewrite alter_length. by apply lookup_lt_is_Some, B.
Qed.

Lemma Rhas_app s s' k sc : has_stack s' = has_stack s -> nodes s' = nodes s ++ [new_node k sc] -> Rhas s s'.
Proof.
  intros H2 H1. unfold Rhas. rewrite H2. split; [|done]. intros [A B]. unfold has_inv. rewrite H1, H2. split.
  - intros m x [Hx|[_ ->]]%lookup_snoc_Some Hl Hh; [by eapply A|done].
  - intros m Hm. destruct (B m Hm) as [y Hy]. exists y. by apply lookup_app_l_Some.
Qed.

Lemma Rhas_collect pins s : Rhas s (collect pins s).2.
Proof.
  split; [|done]. intros [A B]. split; simpl.
  - intros m x (y & Hy & [->| ->])%lookup_sweep_Some Hl Hh; [by eapply A|done].
  - intros m Hm. destruct (B m Hm) as [y Hy]. rewrite list_lookup_imap, Hy. by eexists.
Qed.

(* the one function that sets the flag pushes the node *)
Lemma has_handle_after_stabilisation n : pres Rhas (handle_after_stabilisation n).
Proof.
  intros s. unfold handle_after_stabilisation. rewrite bind_get_node.
  destruct (nodes s !! n) as [x|] eqn:Hx; [|reflexivity]. destruct (n_in_has x); [reflexivity|].
  split; simpl; [|intros m Hm; apply elem_of_app; by left]. intros [A B]. split; simpl.
  - intros m y (z & Hz & [[<- ->]|[_ ->]])%lookup_alter_Some Hl Hh; apply elem_of_app; [right; constructor|left; by eapply A].
  - intros m Hm. apply lookup_lt_is_Some. rewrite alter_length. apply lookup_lt_is_Some.
    apply elem_of_app in Hm as [Hm| ->%elem_of_list_singleton]; [by apply B|by eexists].
Qed.

(* ... and afterwards the node is on the stack, if it is alive *)
Lemma handle_after_stabilisation_queues n s x :
  has_inv s -> nodes s !! n = Some x -> n_live x = true ->
  (handle_after_stabilisation n s).1 = Ok tt /\ n ∈ has_stack (handle_after_stabilisation n s).2.
Proof.
  intros [A B] Hx Hl. unfold handle_after_stabilisation. rewrite bind_get_node, Hx. destruct (n_in_has x) eqn:Hf.
  - split; [done|]. by eapply A.
  - split; [done|]. apply elem_of_app. right. constructor.
Qed.

Lemma has_inv_init max_height dbg : has_inv (init_state max_height dbg).
Proof. split; simpl; [intros n x Hx; done|intros n Hn; by apply elem_of_nil in Hn]. Qed.
