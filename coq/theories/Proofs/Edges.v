(* C11: the edge arrays.  A dependency edge is recorded on both ends: the child's parents vector holds the
   parent at some index i together with `my_child_index_in_parent_at_index[i] = ci`, and the parent's
   `my_parent_index_in_child_at_index[ci] = i`.  add_parent establishes such a link and disturbs none that
   sits in another slot (p', ci') of a parent; remove_parent (with its swap_remove and index fix-up) removes
   exactly the one it is given. *)
From stdpp Require Import base list option numbers.
From RecordUpdate Require Import RecordUpdate.
From Incr.Model Require Import Base Live Engine Api.
From Incr.Proofs Require Import Steps.

Definition link (s : state) (c : nid) (i : nat) (p : nid) (ci : Z) : Prop :=
  exists cn pn, nodes s !! c = Some cn /\ nodes s !! p = Some pn
    /\ n_parents cn !! i = Some p /\ zget (n_cix_in_parent cn) (Z.of_nat i) = Some ci
    /\ (0 <= ci)%Z /\ zget (n_pix_in_child pn) ci = Some (Z.of_nat i).

(* ---- arrays *)
Lemma zget_Some {A} (l : list A) i x : zget l i = Some x -> (0 <= i < zlen l)%Z /\ l !! Z.to_nat i = Some x.
Proof.
  unfold zget, zlen. case_bool_decide; [done|]. intros Hl. split; [|done]. apply lookup_lt_Some in Hl. lia.
Qed.
Lemma zget_nat {A} (l : list A) (i : nat) : zget l (Z.of_nat i) = l !! i.
Proof. unfold zget. rewrite bool_decide_eq_false_2 by lia. by rewrite Nat2Z.id. Qed.
Lemma zget_zset_eq {A} (l : list A) i x y : zget l i = Some y -> zget (zset l i x) i = Some x.
Proof.
  unfold zget, zset. case_bool_decide; [done|]. intros Hl. apply list_lookup_insert. by eapply lookup_lt_Some.
Qed.
Lemma zget_zset_ne {A} (l : list A) i j x : (0 <= i)%Z -> i <> j -> zget (zset l i x) j = zget l j.
Proof. intros. unfold zget, zset. case_bool_decide; [done|]. apply list_lookup_insert_ne. lia. Qed.
Lemma zget_pad_to {A} (l : list A) idx d j x : zget l j = Some x -> zget (pad_to l idx d) j = Some x.
Proof. unfold zget, pad_to. case_bool_decide; [done|]. apply lookup_app_l_Some. Qed.
Lemma zget_zset_pad {A} (l : list A) i d x : (0 <= i)%Z -> zget (zset (pad_to l i d) i x) i = Some x.
Proof.
  intros. unfold zget, zset, pad_to. rewrite bool_decide_eq_false_2 by lia. apply list_lookup_insert.
  rewrite app_length, replicate_length. lia.
Qed.

(* ---- the three index arrays of node x, and a write to one of them at node k.  A link is a statement about
   these arrays only, and each engine function below ends in a state that is a few such writes away from the
   one it started in: what it does to the links is then a matter of list lookups.
   The writes stay folded as [upd] while a function is run.  Where a run ends in [reflexivity], set_par, set_cix
   and set_pix are unfolded first, so that both sides are the same nest of [upd]: left to choose, conversion
   may open [upd] on one side only and then compares state records field by field at every level. *)
Definition upd (k : nid) (f : node -> node) (s : state) : state := s <| nodes := alter f k (nodes s) |>.
Definition par (s : state) (x : nid) : option (list nid) := n_parents <$> nodes s !! x.
Definition cix (s : state) (x : nid) : option (list Z) := n_cix_in_parent <$> nodes s !! x.
Definition pix (s : state) (x : nid) : option (list Z) := n_pix_in_child <$> nodes s !! x.
Definition set_par (k : nid) (h : list nid -> list nid) : state -> state :=
  upd k (fun y => y <| n_parents := h (n_parents y) |>).
Definition set_cix (k : nid) (h : list Z -> list Z) : state -> state :=
  upd k (fun y => y <| n_cix_in_parent := h (n_cix_in_parent y) |>).
Definition set_pix (k : nid) (h : list Z -> list Z) : state -> state :=
  upd k (fun y => y <| n_pix_in_child := h (n_pix_in_child y) |>).

Lemma link_arrays s c i p ci : link s c i p ci <->
  (par s c ≫= (.!! i)) = Some p /\ (cix s c ≫= fun l => zget l (Z.of_nat i)) = Some ci /\ (0 <= ci)%Z
  /\ (pix s p ≫= fun l => zget l ci) = Some (Z.of_nat i).
Proof.
  unfold link, par, cix, pix. split.
  - by intros (cn & pn & -> & -> & ?).
  - destruct (nodes s !! c) as [cn|], (nodes s !! p) as [pn|]; try by intros (? & ? & ? & ?). intros ?. by exists cn, pn.
Qed.

Lemma fmap_lookup_alter {A B} (g : A -> B) f h k (l : list A) x : (forall y, g (f y) = h (g y)) ->
  g <$> alter f k l !! x = (if decide (x = k) then h else id) <$> (g <$> l !! x).
Proof. intros E. rewrite lookup_alter_decide. case_decide; destruct (l !! x); simpl; by rewrite ?E. Qed.
Lemma fmap_lookup_alter_id {A B} (g : A -> B) f k (l : list A) x : (forall y, g (f y) = g y) ->
  g <$> alter f k l !! x = g <$> l !! x.
Proof. intros E. rewrite (fmap_lookup_alter g f id) by done. by destruct (decide _), (l !! x). Qed.

Lemma par_set_par k h s x : par (set_par k h s) x = (if decide (x = k) then h else id) <$> par s x.
Proof. by apply fmap_lookup_alter. Qed.
Lemma cix_set_cix k h s x : cix (set_cix k h s) x = (if decide (x = k) then h else id) <$> cix s x.
Proof. by apply fmap_lookup_alter. Qed.
Lemma pix_set_pix k h s x : pix (set_pix k h s) x = (if decide (x = k) then h else id) <$> pix s x.
Proof. by apply fmap_lookup_alter. Qed.
Lemma par_set_cix k h s x : par (set_cix k h s) x = par s x. Proof. by apply fmap_lookup_alter_id. Qed.
Lemma par_set_pix k h s x : par (set_pix k h s) x = par s x. Proof. by apply fmap_lookup_alter_id. Qed.
Lemma cix_set_par k h s x : cix (set_par k h s) x = cix s x. Proof. by apply fmap_lookup_alter_id. Qed.
Lemma cix_set_pix k h s x : cix (set_pix k h s) x = cix s x. Proof. by apply fmap_lookup_alter_id. Qed.
Lemma pix_set_par k h s x : pix (set_par k h s) x = pix s x. Proof. by apply fmap_lookup_alter_id. Qed.
Lemma pix_set_cix k h s x : pix (set_cix k h s) x = pix s x. Proof. by apply fmap_lookup_alter_id. Qed.
#[export] Hint Rewrite par_set_par cix_set_cix pix_set_pix par_set_cix par_set_pix cix_set_par cix_set_pix pix_set_par pix_set_cix : arrays.

(* running the engine's code: a write, a read after writes, nested sequencing, an assertion that holds *)
Lemma bind_upd {B} k f (K : unit -> M B) s : bindM (upd_node k f) K s = K tt (upd k f s).
Proof. done. Qed.
Lemma lookup_upd k f s x : nodes (upd k f s) !! x = (if decide (x = k) then f else id) <$> nodes s !! x.
Proof. apply lookup_alter_decide. Qed.

(* ---- add_parent *)
Definition add_parent_state (s : state) (c : nid) (ci : Z) (p : nid) (pi : Z) : state :=
  set_par c (fun l => l ++ [p]) (set_pix p (fun l => zset (pad_to l ci (-1)%Z) ci pi)
    (set_cix c (fun l => zset (pad_to l pi (-1)%Z) pi ci) s)).

Lemma add_parent_run s c ci p cn : c <> p -> nodes s !! c = Some cn ->
  add_parent c ci p s = (Ok tt, add_parent_state s c ci p (zlen (n_parents cn))).
Proof.
  intros Hne Hc. unfold add_parent. rewrite bool_decide_eq_false_2, bind_ret, bind_get_node, Hc, !bind_upd by done.
  unfold add_parent_state, set_par, set_pix, set_cix, upd. reflexivity.
Qed.

Lemma add_parent_spec s c ci p cn pn :
  c <> p -> nodes s !! c = Some cn -> nodes s !! p = Some pn -> (0 <= ci)%Z ->
  exists s', add_parent c ci p s = (Ok tt, s')
    /\ link s' c (length (n_parents cn)) p ci
    /\ forall c' i' p' ci', link s c' i' p' ci' -> (p', ci') <> (p, ci) -> link s' c' i' p' ci'.
Proof.
  intros Hne Hc Hp Hci. eexists. split; [by apply add_parent_run|].
  split; [|intros c' i' p' ci' (Hpar & Hcix & Hci' & Hpix)%link_arrays Hother]; apply link_arrays;
    unfold add_parent_state; autorewrite with arrays.
  - unfold par, cix, pix. rewrite Hc, Hp. simpl. rewrite !decide_True by done.
    split_and!; [by apply list_lookup_middle|apply zget_zset_pad, Nat2Z.is_nonneg|done|by apply zget_zset_pad].
  - destruct (par s c') as [lp|] eqn:Elp, (cix s c') as [lc|], (pix s p') as [lx|]; try done. simpl in *. split_and!; [..|done|].
    + case_decide; [by apply lookup_app_l_Some|done].
    + case_decide as Hc'; [|done]. rewrite Hc' in Elp. unfold par in Elp. rewrite Hc in Elp. injection Elp as <-.
      apply lookup_lt_Some in Hpar. rewrite zget_zset_ne; [by apply zget_pad_to|..]; unfold zlen; lia.
    + case_decide as Hp'; [|done]. rewrite zget_zset_ne; [by apply zget_pad_to|done|congruence].
Qed.

(* ---- remove_parent *)
(* the state after removing entry i of c's parents, the last entry (parent end_p, child index eci) being moved
   into its place when i is not the last index *)
Definition remove_parent_state (s : state) (c : nid) (i : nat) (p : nid) (ci : Z) (last : nat)
    (moved : option (nid * Z)) : state :=
  let s1 := set_pix p (fun l => zset l ci (-1)%Z) s in
  let s3 := match moved with
            | Some (end_p, eci) =>
                set_cix c (fun l => zset l (Z.of_nat i) eci) (set_pix end_p (fun l => zset l eci (Z.of_nat i)) s1)
            | None => s1
            end in
  set_par c (fun l => swap_remove l i) (set_cix c (fun l => zset l (Z.of_nat last) (-1)%Z) s3).

Lemma zset_length {A} (l : list A) i x : zlen (zset l i x) = zlen l.
Proof. unfold zlen, zset. by rewrite insert_length. Qed.

Lemma remove_parent_run s c i p ci cn pn moved :
  c <> p -> nodes s !! c = Some cn -> nodes s !! p = Some pn ->
  n_parents cn !! i = Some p -> zget (n_pix_in_child pn) ci = Some (Z.of_nat i) ->
  (length (n_parents cn) - 1 < length (n_cix_in_parent cn))%nat ->
  match moved with
  | None => i = (length (n_parents cn) - 1)%nat
  | Some (end_p, eci) => (i < length (n_parents cn) - 1)%nat /\ end_p <> c
      /\ n_parents cn !! (length (n_parents cn) - 1)%nat = Some end_p
      /\ n_cix_in_parent cn !! (length (n_parents cn) - 1)%nat = Some eci
      /\ exists en, nodes s !! end_p = Some en /\ n_live en = true /\ (0 <= eci < zlen (n_pix_in_child en))%Z
  end ->
  remove_parent c ci p s = (Ok tt, remove_parent_state s c i p ci (length (n_parents cn) - 1) moved).
Proof.
  intros Hne Hc Hp Hpar Hpix Hcixlen Hm.
  assert (i < length (n_parents cn))%nat as Hlt by (by eapply lookup_lt_Some).
  unfold remove_parent.
  rewrite bool_decide_eq_false_2, bind_ret, bind_get_node, Hp, bind_get_node, Hc, Hpix, zget_nat, Hpar by done.
  rewrite !bool_decide_eq_true_2 by (done || unfold zlen; lia). cbn [andb].
  rewrite !bind_dassert_true, bind_upd, bind_get.
  rewrite (bool_decide_eq_false_2 (_ = 0)%Z), bind_ret by (unfold zlen; lia).
  rewrite Nat2Z.id, (bool_decide_eq_true_2 (_ < zlen (n_parents cn))%Z) by (unfold zlen; lia).
  replace (zlen (n_parents cn) - 1)%Z with (Z.of_nat (length (n_parents cn) - 1)) by (unfold zlen; lia).
  destruct moved as [[end_p eci]|].
  - destruct Hm as (Hi & Hec & Hend & Heci & en & He & Hlive & Hrange).
    rewrite bool_decide_eq_true_2, !zget_nat, Hend, Heci by lia.
    rewrite bind_bind, bind_get_node, lookup_upd, He. cbn [fmap option_fmap option_map].
    set (en1 := (if decide _ then _ else id) en).
    assert (n_live en1 = true /\ zlen (n_pix_in_child en1) = zlen (n_pix_in_child en)) as [Hl1 Hz1]
      by (subst en1; case_decide; [split; [done|apply zset_length]|done]).
    rewrite Hl1, bind_bind, bool_decide_eq_false_2, bind_ret, bind_bind, bind_get_node, lookup_upd, He by done.
    cbn [fmap option_fmap option_map]. fold en1.
    rewrite Hz1, !bool_decide_eq_true_2 by (unfold zlen in *; lia). cbn [andb].
    rewrite bind_bind, bind_ret, bind_bind, bind_upd, bind_bind, bind_ret, bind_upd.
    rewrite bind_get_node, !lookup_upd, Hc, decide_True, !decide_False by done. cbn [fmap option_fmap option_map id].
    rewrite bool_decide_eq_true_2, bind_ret, bind_upd, bind_ret by (simpl; rewrite zset_length; unfold zlen; lia).
    unfold remove_parent_state, set_par, set_cix, set_pix. reflexivity.
  - rewrite bool_decide_eq_false_2, bind_ret by lia.
    rewrite bind_get_node, lookup_upd, Hc, decide_False by done. cbn [fmap option_fmap option_map id].
    rewrite bool_decide_eq_true_2, bind_ret, bind_upd, bind_ret by (unfold zlen; lia).
    unfold remove_parent_state, set_par, set_cix, set_pix. reflexivity.
Qed.

Lemma removelast_lookup {A} (l : list A) j : (j < length l - 1)%nat -> removelast l !! j = l !! j.
Proof. intros H. rewrite removelast_firstn_len. apply lookup_take. lia. Qed.
Lemma swap_remove_lookup {A} (l : list A) i j : (j < length l - 1)%nat ->
  swap_remove l i !! j = if decide (j = i) then stdpp.list.last l else l !! j.
Proof.
  intros Hj. unfold swap_remove. destruct (stdpp.list.last l) as [x|] eqn:E; [|apply last_None in E; subst; simpl in Hj; lia].
  case_bool_decide.
  - rewrite decide_False by lia. by apply removelast_lookup.
  - rewrite removelast_lookup by (by rewrite insert_length). case_decide as Hji.
    + rewrite Hji. apply list_lookup_insert. lia.
    + by apply list_lookup_insert_ne.
Qed.

Lemma remove_parent_last_spec s c i p ci cn :
  nodes s !! c = Some cn -> link s c i p ci -> c <> p -> i = (length (n_parents cn) - 1)%nat ->
  exists s', remove_parent c ci p s = (Ok tt, s')
    /\ (forall i', ~ link s' c i' p ci)
    /\ forall c' i' p' ci', link s c' i' p' ci' -> (c', i') <> (c, i) -> (p', ci') <> (p, ci) -> link s' c' i' p' ci'.
Proof.
  intros Hc (cn0 & pn & Hc0 & Hp & Hpar & Hcix & Hci & Hpix) Hne Hlast. assert (cn0 = cn) as -> by congruence.
  eexists. split.
  { apply (remove_parent_run s c i p ci cn pn None); try done. rewrite zget_nat in Hcix. apply lookup_lt_Some in Hcix. lia. }
  assert (par s c = Some (n_parents cn) /\ pix s p = Some (n_pix_in_child pn)) as [Epar Epix]
    by (unfold par, pix; by rewrite Hc, Hp).
  split; [intros i' (_ & _ & _ & Hpix')%link_arrays; unfold remove_parent_state in Hpix'; autorewrite with arrays in Hpix'
    |intros c' i' p' ci' (Hpar' & Hcix' & Hci' & Hpix')%link_arrays Hent Hslot; apply link_arrays;
     unfold remove_parent_state; autorewrite with arrays].
  - rewrite Epix in Hpix'. simpl in Hpix'. rewrite decide_True in Hpix' by done. erewrite zget_zset_eq in Hpix' by done. injection Hpix'. lia.
  - destruct (par s c') as [lp|] eqn:Elp, (cix s c') as [lc|], (pix s p') as [lx|]; try done. simpl in *. split_and!; [..|done|].
    + case_decide as Hc'; [|done]. rewrite Hc' in Elp. assert (lp = n_parents cn) as -> by congruence.
      assert (i' <> i) by congruence. apply lookup_lt_Some in Hpar' as Hlt.
      rewrite swap_remove_lookup, decide_False by lia. done.
    + case_decide as Hc'; [|done]. assert (i' <> i) by congruence. rewrite zget_zset_ne; [done|lia..].
    + case_decide as Hp'; [|done]. apply zget_Some in Hpix as [? _]. rewrite zget_zset_ne; [done|lia|congruence].
Qed.

Lemma remove_parent_moved_spec s c i p ci cn end_p eci en :
  nodes s !! c = Some cn -> link s c i p ci -> c <> p ->
  (i < length (n_parents cn) - 1)%nat ->
  link s c (length (n_parents cn) - 1) end_p eci -> nodes s !! end_p = Some en -> n_live en = true -> end_p <> c ->
  exists s', remove_parent c ci p s = (Ok tt, s')
    /\ (forall i', ~ link s' c i' p ci)
    /\ link s' c i end_p eci
    /\ forall c' i' p' ci', link s c' i' p' ci' -> (c', i') <> (c, i) -> (c', i') <> (c, (length (n_parents cn) - 1)%nat) ->
         (p', ci') <> (p, ci) -> (p', ci') <> (end_p, eci) -> link s' c' i' p' ci'.
Proof.
  intros Hc (cn0 & pn & Hc0 & Hp & Hpar & Hcix & Hci & Hpix) Hne Hlt
         (cn1 & en1 & Hc1 & He1 & Hend & Heci & Heci0 & Hepix) He Hlive Hec.
  assert (cn0 = cn) as -> by congruence. assert (cn1 = cn) as -> by congruence. assert (en1 = en) as -> by congruence.
  apply zget_Some in Hpix as Hcir. apply zget_Some in Hepix as Hecir. rewrite zget_nat in Heci.
  eexists. split.
  { apply (remove_parent_run s c i p ci cn pn (Some (end_p, eci))); try done; [apply (lookup_lt_Some _ _ _ Heci)|].
    split_and!; try done. exists en. destruct Hecir as [? _]. done. }
  assert (par s c = Some (n_parents cn) /\ cix s c = Some (n_cix_in_parent cn) /\ pix s p = Some (n_pix_in_child pn)
          /\ pix s end_p = Some (n_pix_in_child en)) as (Epar & Ecix & Epix & Eepix)
    by (unfold par, cix, pix; by rewrite Hc, Hp, He).
  (* the two slots are different: one says i, the other says last *)
  assert ((end_p, eci) <> (p, ci)) as Hslots by (intros [= -> ->]; assert (en = pn) as -> by congruence; rewrite Hepix in Hpix; injection Hpix; lia).
  split_and!; [intros i' (_ & _ & _ & Hpix')%link_arrays; unfold remove_parent_state in Hpix'; autorewrite with arrays in Hpix'
    |apply link_arrays; unfold remove_parent_state; autorewrite with arrays
    |intros c' i' p' ci' (Hpar' & Hcix' & Hci' & Hpix')%link_arrays Hent1 Hent2 Hslot1 Hslot2; apply link_arrays;
     unfold remove_parent_state; autorewrite with arrays].
  - rewrite Epix in Hpix'. simpl in Hpix'. rewrite (decide_True (P := p = p)) in Hpix' by done.
    case_decide; simpl in *; [rewrite zget_zset_ne in Hpix' by (lia || congruence)|]; erewrite zget_zset_eq in Hpix' by done; injection Hpix'; lia.
  - rewrite Epar, Ecix, Eepix. simpl. rewrite !decide_True by done. split_and!; [..|done|].
    + rewrite swap_remove_lookup, decide_True, last_lookup by done. rewrite <- Hend. f_equal. lia.
    + rewrite zget_zset_ne by lia. by eapply zget_zset_eq.
    + case_decide; simpl; eapply zget_zset_eq; [rewrite zget_zset_ne; [done|lia|congruence]|done].
  - destruct (par s c') as [lp|] eqn:Elp, (cix s c') as [lc|], (pix s p') as [lx|]; try done. simpl in *. split_and!; [..|done|].
    + case_decide as Hc'; [|done]. rewrite Hc' in Elp. assert (lp = n_parents cn) as -> by congruence.
      assert (i' <> i /\ i' <> (length (n_parents cn) - 1)%nat) as [? ?] by (split; congruence). apply lookup_lt_Some in Hpar' as Hl.
      rewrite swap_remove_lookup, decide_False by lia. done.
    + case_decide as Hc'; [|done]. assert (i' <> i /\ i' <> (length (n_parents cn) - 1)%nat) as [? ?] by (split; congruence).
      simpl. rewrite !zget_zset_ne by lia. done.
    + do 2 (case_decide; simpl; [rewrite zget_zset_ne by (lia || congruence)|]); done.
Qed.

(* ---- expert_swap_children_except_in_kind: the two links exchange their child indices *)

Lemma swap_children_links n c1 c2 ci1 ci2 i1 i2 s s' :
  link s c1 i1 n ci1 -> link s c2 i2 n ci2 -> ci1 <> ci2 ->
  expert_swap_children_except_in_kind n c1 ci1 c2 ci2 s = (Ok tt, s') ->
  link s' c1 i1 n ci2 /\ link s' c2 i2 n ci1.
Proof.
  intros (cn1 & pn & Hc1 & Hp & Hpar1 & Hcix1 & H01 & Hpix1) (cn2 & pn' & Hc2 & Hp' & Hpar2 & Hcix2 & H02 & Hpix2) Hne E.
  assert (pn' = pn) as -> by congruence.
  assert (s' = set_pix n (fun l => zset (zset l ci1 (Z.of_nat i2)) ci2 (Z.of_nat i1))
    (set_cix c2 (fun l => zset l (Z.of_nat i2) ci1) (set_cix c1 (fun l => zset l (Z.of_nat i1) ci2) s))) as ->.
  { unfold expert_swap_children_except_in_kind in E. apply bind_ok in E as (u0 & s0 & E0 & E).
    (* the first assertion only reads *)
    rewrite (ro_run (dassert _ _)) in E0 by (unfold get_node; repeat logic_step ltac:(exact I)). injection E0 as _ <-.
    destruct (_ || _); [done|].
    rewrite bind_ret, bind_get_node, Hp, bind_get_node, Hc1, bind_get_node, Hc2, Hpix1, Hpix2 in E.
    rewrite !bool_decide_eq_true_2, !bind_dassert_true in E by done. destruct (_ && _); [|done].
    rewrite bind_ret, !bind_upd in E. injection E as <-. unfold set_pix, set_cix, upd. reflexivity. }
  assert (c1 = c2 -> i1 <> i2) as Hii by (intros -> ->; congruence).
  split; apply link_arrays; autorewrite with arrays; unfold par, cix, pix; rewrite ?Hc1, ?Hc2, Hp; simpl;
    rewrite (decide_True (P := n = n)) by done; (split_and!; [done| |done|]).
  - rewrite (decide_True (P := c1 = c1)) by done. case_decide; simpl; [rewrite zget_zset_ne by (lia || naive_solver)|]; by eapply zget_zset_eq.
  - eapply zget_zset_eq. by rewrite zget_zset_ne.
  - rewrite (decide_True (P := c2 = c2)) by done. eapply zget_zset_eq. case_decide; simpl; [rewrite zget_zset_ne by (lia || naive_solver)|]; done.
  - rewrite zget_zset_ne by done. by eapply zget_zset_eq.
Qed.
