(* C09: what a subscription is told. *)
From stdpp Require Import base list option numbers.
From RecordUpdate Require Import RecordUpdate.
From Incr.Model Require Import Base Live Engine Api.
From Incr.Proofs Require Import Steps.

(* the decision table of OnUpdateHandler::run as a function: what (if anything) a handler that was
   last told [prev] is told when its node reports [nu] *)
Definition deliver (prev : previously) (nu : node_update) : option node_update :=
  match prev, nu with
  | PInvalidated, _ => None
  | PChanged, NUNecessary | PNecessary, NUNecessary | PUnnecessary, NUUnnecessary => None
  | PNever, NUChanged | PUnnecessary, NUChanged => Some NUNecessary
  | _, nu => Some nu
  end.

Definition prev_of (nu : node_update) : previously :=
  match nu with
  | NUChanged => PChanged | NUNecessary => PNecessary
  | NUInvalidated => PInvalidated | NUUnnecessary => PUnnecessary
  end.

Lemma handler_run_eq o ix h n nu now :
  handler_run o ix h n nu now =
    if bool_decide (hd_created_at h < now)%Z then
      match deliver (hd_prev h) nu with
      | Some k => really_run o ix h n k
      | None => ret tt
      end
    else ret tt.
Proof. unfold handler_run, deliver. case_bool_decide; [|done]. destruct (hd_prev h), nu; done. Qed.

(* the same table governs the handlers attached to a node itself (Incr::on_update) *)
Lemma node_handler_run_eq n ix h nu now :
  node_handler_run n ix h nu now =
    if bool_decide (hd_created_at h < now)%Z then
      match deliver (hd_prev h) nu with
      | Some k => node_really_run n ix h k
      | None => ret tt
      end
    else ret tt.
Proof. unfold node_handler_run, deliver. case_bool_decide; [|done]. destruct (hd_prev h), nu; done. Qed.

(* the sequence of deliveries of one handler over successive reports of its node *)
Fixpoint deliveries (prev : previously) (nus : list node_update) : list node_update :=
  match nus with
  | [] => []
  | nu :: nus' =>
      match deliver prev nu with
      | Some k => k :: deliveries (prev_of k) nus'
      | None => deliveries prev nus'
      end
  end.

(* the reports of a node while it is observed: never Unnecessary (observed_not_unnecessary below) *)
Definition no_unnecessary (nus : list node_update) : Prop := Forall (fun nu => nu <> NUUnnecessary) nus.

Lemma deliveries_from_started prev nus :
  prev <> PNever -> prev <> PUnnecessary -> no_unnecessary nus ->
  NUNecessary ∉ deliveries prev nus.
Proof.
  revert prev. induction nus as [|nu nus IH]; intros prev H1 H2 Hn; simpl; [apply not_elem_of_nil|].
  pose proof (Forall_inv Hn) as Hnu. pose proof (Forall_inv_tail Hn) as Hn'.
  destruct prev, nu; simpl; try done; try (apply IH; done).
  all: try (rewrite not_elem_of_cons; split; [done|apply IH; done]).
Qed.

(* Initialised at most once, and only as the very first thing a subscription hears *)
Lemma initialised_once nus :
  no_unnecessary nus ->
  match deliveries PNever nus with
  | [] => True
  | d :: ds => NUNecessary ∉ ds
  end.
Proof.
  induction nus as [|nu nus IH]; intros Hn; simpl; [done|].
  pose proof (Forall_inv Hn) as Hnu. pose proof (Forall_inv_tail Hn) as Hn'.
  destruct nu; simpl; try done.
  all: apply deliveries_from_started; done.
Qed.

(* the first thing a handler hears is never Changed *)
Lemma first_is_initialised nus d ds :
  deliveries PNever nus = d :: ds -> d = NUNecessary \/ d = NUInvalidated \/ d = NUUnnecessary.
Proof.
  induction nus as [|nu nus IH]; simpl; [done|].
  destruct nu; simpl; intros H; simplify_eq; auto.
Qed.

(* after Invalidated nothing is ever delivered again *)
Lemma nothing_after_invalidated nus : deliveries PInvalidated nus = [].
Proof. induction nus as [|nu nus IH]; simpl; [done|]. by destruct nu. Qed.

(* every Changed a subscription hears comes from a report Changed of the node *)
Lemma changed_only_when_reported prev nus :
  NUChanged ∈ deliveries prev nus -> NUChanged ∈ nus.
Proof.
  revert prev. induction nus as [|nu nus IH]; intros prev; simpl; [done|].
  destruct (deliver prev nu) as [k|] eqn:E.
  - intros [Hk|H]%elem_of_cons.
    + subst k. destruct prev, nu; simpl in E; simplify_eq; apply elem_of_cons; auto.
    + apply elem_of_cons. right. by eapply IH.
  - intros H. apply elem_of_cons. right. by eapply IH.
Qed.

(* a report Changed is always passed on (as Initialised the first time), unless the subscription
   already heard Invalidated *)
Lemma changed_is_never_lost prev :
  prev <> PInvalidated -> is_Some (deliver prev NUChanged).
Proof. destruct prev; simpl; try done; by eexists. Qed.

(* ---- what the node reports: node_update (node.rs:966) *)
Lemma node_update_of_eq n s x :
  nodes s !! n = Some x ->
  node_update_of n s =
    (Ok (if negb (n_valid x) then NUInvalidated
         else if negb (is_necessary x) then NUUnnecessary
         else match node_value (S n) s n with
              | Some _ => if bool_decide (n_changed_at x + 1 = stab_num s)%Z then NUChanged else NUNecessary
              | None => NUNecessary
              end), s).
Proof.
  intros Hn. unfold node_update_of. rewrite (bind_eq _ _ _ _ _ (get_node_eq _ _ _ Hn)).
  destruct (n_valid x); [|done]. by destruct (is_necessary x).
Qed.

(* an observed node (one with a linked observer) never reports Unnecessary *)
Lemma observed_not_unnecessary n s x r s' :
  nodes s !! n = Some x -> n_observers x <> [] -> node_update_of n s = (Ok r, s') -> r <> NUUnnecessary.
Proof.
  intros Hn Ho. rewrite (node_update_of_eq n s x Hn). intros H. simplify_eq.
  assert (is_necessary x = true) as Hnec.
  { unfold is_necessary. rewrite (bool_decide_eq_false_2 _ Ho). by rewrite orb_true_r. }
  rewrite Hnec. destruct (n_valid x); simpl; [|done]. repeat case_match; done.
Qed.

(* ---- no callback after disallow / unsubscribe / unlink *)
(* a disallowed observer's handlers are not run: run_all does nothing at all *)
Lemma run_all_disallowed o n nu now s ob :
  obss s !! o = Some ob -> o_state ob = ODisallowed -> run_all o n nu now s = (Ok tt, s).
Proof.
  intros Ho Hst. assert (get_obs o s = (Ok ob, s)) as E by (by rewrite get_obs_run, Ho).
  unfold run_all. rewrite (bind_eq _ _ _ _ _ E). induction (seq 0 _) as [|ix l IH]; [done|].
  cbn [forM_]. unfold bindM at 1. rewrite (bind_eq _ _ _ _ _ E), Hst. by destruct (o_handlers ob !! ix).
Qed.

(* after a successful unsubscribe no handler with that token is left in the observer's table *)
Lemma unsubscribe_removes o tok s c s' :
  unsubscribe o o tok s = (Ok c, s') ->
  forall ob', obss s' !! o = Some ob' -> (o_state ob' = OInUse \/ o_state ob' = OCreated) ->
    Forall (fun h => hd_token h <> tok) (o_handlers ob').
Proof.
  intros E ob' Ho' Hst. unfold unsubscribe in E. rewrite bool_decide_eq_true_2 in E by done.
  apply bind_ok in E as (ob & s0 & E0 & E). rewrite get_obs_run in E0.
  destruct (obss s !! o) as [ob0|] eqn:Ho; [|done]. injection E0 as -> <-.
  (* either nothing is written, and then no handler had the token, or the table is filtered *)
  assert (s' = s /\ (o_state ob = OInUse \/ o_state ob = OCreated ->
                     existsb (fun h => bool_decide (hd_token h = tok)) (o_handlers ob) = false)
          \/ obss s' = alter (fun ob => ob <| o_handlers := filter (fun h => hd_token h <> tok) (o_handlers ob) |>) o (obss s))
    as [[-> Hex]|Hw].
  { destruct (o_state ob) eqn:Hs; try (left; split; [by injection E|by intros []]).
    all: rewrite bind_get in E; apply bind_ok in E as ([] & s1 & Eb & E); case_bool_decide; [done|]; injection Eb as <-.
    all: destruct (existsb _ _); cbn [negb] in E; [right|left; split; [by injection E|done]].
    all: unfold upd_obs in E; rewrite bind_modify, ?bind_upd_node in E; by injection E as _ <-. }
  - simplify_eq. apply Forall_forall. intros h Hh Heq. apply not_true_iff_false in Hex; [|done].
    apply Hex, existsb_exists. exists h. by rewrite bool_decide_eq_true.
  - rewrite Hw, list_lookup_alter, Ho in Ho'. injection Ho' as <-. apply list.Forall_forall. by intros h [? _]%elem_of_list_filter.
Qed.
