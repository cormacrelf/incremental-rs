(* C19: the height limit is exact; misuse panics immediately. *)
From stdpp Require Import base list option numbers.
From RecordUpdate Require Import RecordUpdate.
From Incr.Model Require Import Base Live Engine Api.
From Incr.Proofs Require Import Steps HeightLimit.
Local Open Scope Z_scope.

(* set_height: the only place heights are written *)
Lemma set_height_eq n h s :
  set_height n h s =
    if bool_decide (ahh_max_seen s < h) then
      if bool_decide (ahh_max_allowed s < h) then (Panic PHeightLimit, s <| ahh_max_seen := h |>)
      else (Ok tt, s <| ahh_max_seen := h |> <| nodes := alter (fun x => x <| n_height := h |>) n (nodes s) |>)
    else (Ok tt, s <| nodes := alter (fun x => x <| n_height := h |>) n (nodes s) |>).
Proof.
  unfold set_height, bindM, get, modify, upd_node, ret, panic. cbv beta iota.
  case_bool_decide; cbv beta iota; [|done]. simpl. case_bool_decide; done.
Qed.

(* as long as the greatest height seen is within the limit (true of every state that has not already
   panicked with HeightLimit), setting a height panics — with HeightLimit, nothing else — exactly when
   it exceeds the limit *)
Lemma height_limit_exact n h s :
  ahh_max_seen s <= ahh_max_allowed s ->
  ((set_height n h s).1 = Panic PHeightLimit <-> ahh_max_allowed s < h)
  /\ (ahh_max_allowed s < h \/ (set_height n h s).1 = Ok tt).
Proof.
  intros Hinv. rewrite set_height_eq. repeat case_bool_decide; simpl; split; try split; try done; try lia; auto.
Qed.

(* ... and an accepted height keeps that invariant *)
Lemma set_height_keeps_seen_within_limit n h s :
  ahh_max_seen s <= ahh_max_allowed s -> (set_height n h s).1 = Ok tt ->
  ahh_max_seen (set_height n h s).2 <= ahh_max_allowed (set_height n h s).2
  /\ ahh_max_allowed (set_height n h s).2 = ahh_max_allowed s.
Proof.
  intros Hinv. rewrite set_height_eq. unfold ahh_max_allowed. repeat case_bool_decide; simpl; try done; lia.
Qed.

(* a state created with new_with_height(N) allows exactly heights 0..N in both heaps *)
Lemma init_state_limit N dbg : 0 <= N ->
  ahh_max_allowed (init_state N dbg) = N /\ rch_max_allowed (init_state N dbg) = N
  /\ ahh_max_seen (init_state N dbg) = 0.
Proof.
  intros HN. unfold ahh_max_allowed, rch_max_allowed, init_state, zlen. simpl.
  rewrite replicate_length. split_and!; try done; lia.
Qed.


(* set_max_height_allowed(N): refused below the greatest height seen, otherwise both heaps allow
   exactly N afterwards *)
Lemma set_max_height_below_seen N s :
  st_status s <> Stabilising -> N < ahh_max_seen s ->
  set_max_height_allowed N s = (Panic PSetMaxBelowSeen, s).
Proof.
  intros Hst Hlt. unfold set_max_height_allowed, bindM, gets. cbv beta iota.
  destruct (st_status s); try done.
  all: unfold ahh_set_max_height_allowed, bindM, get, panic; cbv beta iota; rewrite bool_decide_eq_true_2 by done; done.
Qed.

Lemma ahh_set_max_ok N s s' :
  ahh_set_max_height_allowed N s = (Ok tt, s') ->
  ahh_max_seen s <= N /\ s' = s <| ahh_queues := resize (ahh_queues s) (Z.to_nat (N + 1)) [] |>.
Proof.
  unfold ahh_set_max_height_allowed, dassert, bindM, get, gets, ret, panic, modify. cbv beta iota.
  case_bool_decide; [done|]. repeat case_match; intros; simplify_eq; (split; [lia|done]).
Qed.

Lemma rch_set_max_ok N s s' :
  rch_set_max_height_allowed N s = (Ok tt, s') -> rch_queues s' = resize (rch_queues s) (Z.to_nat (N + 1)) [] /\ ahh_queues s' = ahh_queues s.
Proof.
  unfold rch_set_max_height_allowed, bindM, get, ret, panic, modify. cbv beta iota.
  destruct (debug s && _); intros; by simplify_eq.
Qed.

Lemma set_max_height_exact N s s' :
  0 <= N -> set_max_height_allowed N s = (Ok tt, s') ->
  ahh_max_allowed s' = N /\ rch_max_allowed s' = N /\ ahh_max_seen s <= N.
Proof.
  intros HN H. assert ((ahh_set_max_height_allowed N ;;; rch_set_max_height_allowed N) s = (Ok tt, s')) as H'.
  { revert H. unfold set_max_height_allowed, bindM at 1, gets. cbv beta iota. by destruct (st_status s). }
  apply bind_ok in H' as ([] & s1 & [Hs ->]%ahh_set_max_ok & [Hr Ha]%rch_set_max_ok).
  unfold ahh_max_allowed, rch_max_allowed, zlen. rewrite Hr, Ha. cbn [ahh_queues set]. rewrite !resize_length. lia.
Qed.

(* stabilise from inside a node function or a handler: an immediate panic, the state untouched *)
Lemma nested_stabilise_effect fuel arg s :
  st_status s <> NotStabilising -> run_effect fuel arg EStabilise s = (Panic PNestedStabilise, s).
Proof. intros H. unfold run_effect, bindM, gets. cbv beta iota. destruct (st_status s); done. Qed.

(* closing a cycle: when the walk of adjust_heights reaches the node the new edge starts from, it
   panics naming the cycle *)
Lemma dassert_release b site s : debug s = false -> dassert b site s = (Ok tt, s).
Proof. intros Hd. unfold dassert, bindM, gets, ret. cbv beta iota. by rewrite Hd. Qed.

Lemma ensure_height_requirement_cycle oc op child s :
  debug s = false -> (ensure_height_requirement oc op child oc s).1 = Panic PCycle.
Proof.
  intros Hd. unfold ensure_height_requirement.
  erewrite bind_eq by (by apply dassert_release). erewrite bind_eq by (by apply dassert_release).
  rewrite bool_decide_eq_true_2 by done. done.
Qed.

(* during the propagation phase (from a node, fold, bind or cutoff function) the call is refused and changes nothing;
   in the handler phase the status is RunningOnUpdateHandlers and the call is served like one from top level *)
Lemma set_max_height_during_propagation N s :
  st_status s = Stabilising -> set_max_height_allowed N s = (Panic PSetMaxDuringStabilise, s).
Proof. intros H. unfold set_max_height_allowed, bindM, gets. cbv beta iota. rewrite H. reflexivity. Qed.

(* what a closure or handler calls is that very function *)
Lemma effect_set_max_height fuel arg N : run_effect fuel arg (ESetMaxHeight N) = set_max_height_allowed N.
Proof. reflexivity. Qed.
