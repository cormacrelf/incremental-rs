(* C05: the recompute heap holds necessary nodes only (debug builds, as long as nothing panicked).

   HNx X s: in s every node whose cell says it is in the recompute heap is necessary, except possibly the
   nodes listed in X — the ones whose last dependant or observer has just been taken away and whose
   check_if_unnecessary is still to come.

   "Valid nodes only" (VNx, HeapValid.v) is the same statement about another property of nodes: the
   section is over a property P that rch_insert's debug assertion implies and that does not read the
   cells the heap and the collector write. *)
From stdpp Require Import base list option numbers.
From RecordUpdate Require Import RecordUpdate.
From Incr.Model Require Import Base Live Engine Api.
From Incr.Proofs Require Import OkPres Steps RchInv.

Section heap_only.
Context (P : node -> bool)
  (P_live : forall x, P (x <| n_live := false |>) = P x)
  (P_cell : forall x h, P (x <| n_height_in_rch := h |>) = P x)
  (P_needed : forall s x, needs_to_be_computed s x = true -> P x = true).

Definition heap_only (X : list nid) (s : state) : Prop :=
  debug s = true
  /\ forall n x, nodes s !! n = Some x -> (0 <= n_height_in_rch x)%Z -> P x = true \/ n ∈ X.

Lemma heap_only_mono X X' s : (forall n, n ∈ X -> n ∈ X') -> heap_only X s -> heap_only X' s.
Proof. intros H [Hd A]. split; [done|]. intros n x Hx Hp. destruct (A n x Hx Hp); auto. Qed.
Lemma heap_only_init max_height : heap_only [] (init_state max_height true).
Proof. split; [done|]. intros n x Hx. done. Qed.
Lemma heap_only_cons n X s : heap_only X s -> heap_only (n :: X) s.
Proof. apply heap_only_mono. intros m Hm. by right. Qed.

(* the exception for n can be dropped once n has P again, or is out of the heap *)
Lemma heap_only_resolve X s n x : nodes s !! n = Some x -> (P x = true \/ (n_height_in_rch x < 0)%Z) ->
  heap_only (n :: X) s -> heap_only X s.
Proof.
  intros Hx Hr [Hd A]. split; [done|]. intros m y Hy Hp. destruct (A m y Hy Hp) as [|Hin]; [by left|].
  apply elem_of_cons in Hin as [->|Hin]; [|by right]. simplify_eq. destruct Hr; [by left|lia].
Qed.

Lemma heap_only_same X s s' : debug s' = debug s -> nodes s' = nodes s -> heap_only X s -> heap_only X s'.
Proof. intros H1 H2 [Hd A]. split; [congruence|]. by rewrite H2. Qed.

Lemma heap_only_alter X s s' m f : debug s' = debug s -> nodes s' = alter f m (nodes s) ->
  (forall x, n_height_in_rch (f x) = n_height_in_rch x) ->
  ((forall x, P x = true -> P (f x) = true) \/ m ∈ X) ->
  heap_only X s -> heap_only X s'.
Proof.
  intros H1 H2 Hc Hn [Hd A]. split; [congruence|]. rewrite H2.
  intros n x (y & Hy & [[<- ->]|[_ ->]])%lookup_alter_Some Hp; [|by eapply A].
  rewrite Hc in Hp. destruct Hn as [Hn|?]; [|by right]. destruct (A _ _ Hy Hp); auto.
Qed.

Lemma heap_only_app X s s' k sc : debug s' = debug s -> nodes s' = nodes s ++ [new_node k sc] ->
  heap_only X s -> heap_only X s'.
Proof.
  intros H1 H2 [Hd A]. split; [congruence|]. rewrite H2.
  intros n x [Hx|[_ ->]]%lookup_snoc_Some Hp; [by eapply A|]. simpl in Hp. lia.
Qed.

Lemma heap_only_collect X pins s : heap_only X s -> heap_only X (collect pins s).2.
Proof.
  intros [Hd A]. split; [done|]. simpl. intros n x (y & Hy & [->| ->])%lookup_sweep_Some Hp; [by eapply A|].
  rewrite P_live. by eapply A.
Qed.

Lemma heap_only_insert n X : okp (heap_only X) (rch_insert n).
Proof.
  intros s u s' [Hd A] E.
  destruct (rch_insert_spec n s Hd) as (s1 & (Hn1 & _ & _ & Hd1 & _) & [(x & q & Hx & _ & Hc & _ & _ & _ & E')|(t & E' & _)]);
    rewrite E' in E; [|done].
  simplify_eq. split; [exact (eq_trans Hd1 Hd)|]. unfold link_state. simpl. rewrite Hn1.
  intros m y (z & Hz & [[<- ->]|[_ ->]])%lookup_alter_Some Hp; [|by eapply A].
  left. simplify_eq. rewrite P_cell. by eapply P_needed.
Qed.

(* removing n settles n's exception, if it had one *)
Lemma heap_only_remove_resolves n X : okp2 (heap_only (n :: X)) (heap_only X) (rch_remove n).
Proof.
  intros s u s' [Hd A] E.
  destruct (rch_remove_spec n s Hd) as [(x & q & i & _ & _ & _ & _ & E')|(t & E' & _)]; rewrite E' in E; [|done].
  simplify_eq. split; [done|]. simpl.
  intros m y (z & Hz & [[<- ->]|[Hne ->]])%lookup_alter_Some Hp; [simpl in Hp; lia|].
  destruct (A m z Hz Hp) as [|[->|]%elem_of_cons]; by auto.
Qed.

Lemma heap_only_remove n X : okp (heap_only X) (rch_remove n).
Proof.
  eapply okp2_pre; [apply heap_only_cons|apply heap_only_remove_resolves].
Qed.

Lemma heap_only_increase_height n X : okp (heap_only X) (rch_increase_height n).
Proof.
  intros s u s' [Hd A] E.
  destruct (rch_increase_height_spec n s Hd) as [(x & q & i & q' & Hx & Hpos & _ & _ & _ & E')|(t & E' & _)];
    rewrite E' in E; [|done].
  simplify_eq. split; [done|]. simpl.
  intros m y (z & Hz & [[<- ->]|[_ ->]])%lookup_alter_Some Hp; [|by eapply A].
  simplify_eq. rewrite P_cell. eapply A; [done|lia].
Qed.

Lemma heap_only_remove_min X : okp (heap_only X) rch_remove_min.
Proof.
  intros s u s' [Hd A] E.
  destruct (rch_remove_min_spec s Hd) as (s2 & (Hn2 & _ & _ & Hd2 & _) & [(n & q' & _ & _ & E')|(r & E' & _)]);
    rewrite E' in E; simplify_eq; (split; [simpl; congruence|]); simpl; rewrite Hn2; [|done].
  intros m y (z & Hz & [[<- ->]|[_ ->]])%lookup_alter_Some Hp; [simpl in Hp; lia|by eapply A].
Qed.
End heap_only.

Definition HNx (X : list nid) (s : state) : Prop :=
  debug s = true
  /\ forall n x, nodes s !! n = Some x -> (0 <= n_height_in_rch x)%Z -> is_necessary x = true \/ n ∈ X.

Lemma HNx_cons n X s : HNx X s -> HNx (n :: X) s.
Proof. apply heap_only_cons. Qed.
Lemma HNx_resolve X s n x : nodes s !! n = Some x -> (is_necessary x = true \/ (n_height_in_rch x < 0)%Z) ->
  HNx (n :: X) s -> HNx X s.
Proof. apply heap_only_resolve. Qed.
Lemma HNx_same X s s' : debug s' = debug s -> nodes s' = nodes s -> HNx X s -> HNx X s'.
Proof. apply heap_only_same. Qed.
Lemma HNx_alter X s s' m f : debug s' = debug s -> nodes s' = alter f m (nodes s) ->
  (forall x, n_height_in_rch (f x) = n_height_in_rch x) ->
  ((forall x, is_necessary x = true -> is_necessary (f x) = true) \/ m ∈ X) ->
  HNx X s -> HNx X s'.
Proof. apply heap_only_alter. Qed.
Lemma HNx_app X s s' k sc : debug s' = debug s -> nodes s' = nodes s ++ [new_node k sc] -> HNx X s -> HNx X s'.
Proof. apply heap_only_app. Qed.
Lemma HNx_collect X pins s : HNx X s -> HNx X (collect pins s).2.
Proof. by apply heap_only_collect. Qed.

Lemma needed_necessary s x : needs_to_be_computed s x = true -> is_necessary x = true.
Proof. by intros [? _]%andb_true_iff. Qed.

Lemma hn_rch_insert n X : okp (HNx X) (rch_insert n).
Proof. apply heap_only_insert; [done|apply needed_necessary]. Qed.
Lemma hn_rch_remove_resolves n X : okp2 (HNx (n :: X)) (HNx X) (rch_remove n).
Proof. apply heap_only_remove_resolves. Qed.
Lemma hn_rch_remove n X : okp (HNx X) (rch_remove n).
Proof. apply heap_only_remove. Qed.
Lemma hn_rch_increase_height n X : okp (HNx X) (rch_increase_height n).
Proof. by apply heap_only_increase_height. Qed.
Lemma hn_rch_remove_min X : okp (HNx X) rch_remove_min.
Proof. apply heap_only_remove_min. Qed.
