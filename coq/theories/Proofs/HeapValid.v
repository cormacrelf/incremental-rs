(* C03: the recompute heap holds valid nodes only (debug builds, as long as nothing panicked).

   VNx X s: in s every node whose cell says it is in the recompute heap is valid, except possibly the
   nodes listed in X — the ones invalidate_node has just marked invalid and is about to take out of the
   heap. *)
From stdpp Require Import base list option numbers.
From RecordUpdate Require Import RecordUpdate.
From Incr.Model Require Import Base Live Engine Api.
From Incr.Proofs Require Import OkPres HeapNeeded.

Definition VNx (X : list nid) (s : state) : Prop :=
  debug s = true
  /\ forall n x, nodes s !! n = Some x -> (0 <= n_height_in_rch x)%Z -> n_valid x = true \/ n ∈ X.

Lemma VNx_cons n X s : VNx X s -> VNx (n :: X) s.
Proof. apply heap_only_cons. Qed.
Lemma VNx_resolve X s n x : nodes s !! n = Some x -> (n_valid x = true \/ (n_height_in_rch x < 0)%Z) ->
  VNx (n :: X) s -> VNx X s.
Proof. apply heap_only_resolve. Qed.
Lemma VNx_same X s s' : debug s' = debug s -> nodes s' = nodes s -> VNx X s -> VNx X s'.
Proof. apply heap_only_same. Qed.
Lemma VNx_alter X s s' m f : debug s' = debug s -> nodes s' = alter f m (nodes s) ->
  (forall x, n_height_in_rch (f x) = n_height_in_rch x) ->
  ((forall x, n_valid x = true -> n_valid (f x) = true) \/ m ∈ X) ->
  VNx X s -> VNx X s'.
Proof. apply heap_only_alter. Qed.
Lemma VNx_app X s s' k sc : debug s' = debug s -> nodes s' = nodes s ++ [new_node k sc] -> VNx X s -> VNx X s'.
Proof. apply heap_only_app. Qed.
Lemma VNx_collect X pins s : VNx X s -> VNx X (collect pins s).2.
Proof. by apply heap_only_collect. Qed.

(* an invalid node is not stale *)
Lemma needed_valid s x : needs_to_be_computed s x = true -> n_valid x = true.
Proof. intros [_ Hst]%andb_true_iff. unfold is_stale, node_kind in Hst. by destruct (n_valid x). Qed.

Lemma vn_rch_insert n X : okp (VNx X) (rch_insert n).
Proof. apply heap_only_insert; [done|apply needed_valid]. Qed.
Lemma vn_rch_remove_resolves n X : okp2 (VNx (n :: X)) (VNx X) (rch_remove n).
Proof. apply heap_only_remove_resolves. Qed.
Lemma vn_rch_remove n X : okp (VNx X) (rch_remove n).
Proof. apply heap_only_remove. Qed.
Lemma vn_rch_increase_height n X : okp (VNx X) (rch_increase_height n).
Proof. by apply heap_only_increase_height. Qed.
Lemma vn_rch_remove_min X : okp (VNx X) rch_remove_min.
Proof. apply heap_only_remove_min. Qed.
