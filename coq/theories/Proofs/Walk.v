(* The walk over the engine's code, once: every engine function satisfies any judgment that the monad's
   combinators respect (Logic.v) and that holds of the elementary writes (Writes.v) a mask [ok] lets
   through.
   - Each use of a write records, as a section hypothesis [ok_*], that the mask lets it through: a
     closed lemma's premises are exactly the writes its function can reach, and a relation does not
     instantiate the lemmas whose premises it cannot meet.
   - A function that some invariant has to treat by hand gets a lemma about its body ([b_f]) and is
     assumed from then on ([H_f]): the invariant supplies its own proof and still uses everything
     downstream. *)
From stdpp Require Import base list option numbers.
From RecordUpdate Require Import RecordUpdate.
From Incr.Model Require Import Base Live Engine Api.
From Incr.Proofs Require Import Pres Safe OkPres RchInv.
From Incr.Proofs Require Export Writes.

(* what a relation or invariant supplies: its judgment of the writes its mask lets through, and
   that it tolerates every panic tag but the recompute heap's own (RchInv.Qri holds of every tag but
   those three, which Safe.v's judgment of the heap invariant shows unreachable) *)
Class Frame (J : forall A, M A -> Prop) (T : ptag -> Prop) (ok : wid -> Prop) : Prop := {
  fr_logic :> Logic J T;
  fr_writes w m : write w m -> ok w -> J _ m;
  fr_tags t : Qri t -> T t;
}.

Create HintDb walk discriminated.
Create HintDb writes discriminated.
Global Hint Constructors write : writes.

Ltac write_goal :=
  lazymatch goal with
  | |- _ (modify _) => idtac
  | |- _ (emit _) => idtac
  | |- _ (collect _) => idtac
  | |- _ (upd_node _ _) => idtac
  | |- _ (stamp_node _ _) => idtac
  | |- _ (stamp_var _ _) => idtac
  | |- _ (upd_bind _ _) => idtac
  | |- _ (upd_var _ _) => idtac
  | |- _ (upd_obs _ _) => idtac
  | |- _ (upd_expert _ _) => idtac
  | |- _ (upd_edge _ _) => idtac
  | |- _ (upd_perkey _ _) => idtac
  end.

Section walk.
Context (J : forall A, M A -> Prop) (T : ptag -> Prop) (ok : wid -> Prop) `(F : !Frame J T ok).

Hypothesis ok_events : ok Wevents.
Hypothesis ok_inv_count : ok Winv_count.
Hypothesis ok_crash_at : ok Wcrash_at.
Hypothesis ok_num_became_necessary : ok Wnum_became_necessary.
Hypothesis ok_num_became_unnecessary : ok Wnum_became_unnecessary.
Hypothesis ok_num_invalidated : ok Wnum_invalidated.
Hypothesis ok_num_var_sets : ok Wnum_var_sets.
Hypothesis ok_num_changed : ok Wnum_changed.
Hypothesis ok_num_active_observers : ok Wnum_active_observers.
Hypothesis ok_handles : ok Whandles.
Hypothesis ok_exports : ok Wexports.
Hypothesis ok_exports_clear : ok Wexports_clear.
Hypothesis ok_dep_slots : ok Wdep_slots.
Hypothesis ok_collect : ok Wcollect.
Hypothesis ok_n_height_in_rch : ok Wn_height_in_rch.
Hypothesis ok_rch_push : ok Wrch_push.
Hypothesis ok_rch_swap_remove : ok Wrch_swap_remove.
Hypothesis ok_rch_pop : ok Wrch_pop.
Hypothesis ok_rch_resize : ok Wrch_resize.
Hypothesis ok_rch_lower : ok Wrch_lower.
Hypothesis ok_rch_lower_incr : ok Wrch_lower_incr.
Hypothesis ok_rch_lower_top : ok Wrch_lower_top.
Hypothesis ok_rch_lower_min : ok Wrch_lower_min.
Hypothesis ok_rch_len_incr : ok Wrch_len_incr.
Hypothesis ok_rch_len_decr : ok Wrch_len_decr.
Hypothesis ok_n_height_in_ahh : ok Wn_height_in_ahh.
Hypothesis ok_ahh_resize : ok Wahh_resize.
Hypothesis ok_ahh_push : ok Wahh_push.
Hypothesis ok_ahh_pop : ok Wahh_pop.
Hypothesis ok_ahh_len_incr : ok Wahh_len_incr.
Hypothesis ok_ahh_len_decr : ok Wahh_len_decr.
Hypothesis ok_ahh_lower : ok Wahh_lower.
Hypothesis ok_ahh_max_seen : ok Wahh_max_seen.
Hypothesis ok_n_height : ok Wn_height.
Hypothesis ok_n_cix_pad : ok Wn_cix_pad.
Hypothesis ok_n_cix : ok Wn_cix.
Hypothesis ok_n_pix_pad : ok Wn_pix_pad.
Hypothesis ok_n_pix : ok Wn_pix.
Hypothesis ok_n_pix_swap : ok Wn_pix_swap.
Hypothesis ok_n_parents_push : ok Wn_parents_push.
Hypothesis ok_n_parents_swap_remove : ok Wn_parents_swap_remove.
Hypothesis ok_node_new : ok Wnode_new.
Hypothesis ok_n_cutoff : ok Wn_cutoff.
Hypothesis ok_n_valid_false : ok Wn_valid_false.
Hypothesis ok_n_value_none : ok Wn_value_none.
Hypothesis ok_n_value_some : ok Wn_value_some.
Hypothesis ok_n_value_none_mapref : ok Wn_value_none_mapref.
Hypothesis ok_n_mapref_true : ok Wn_mapref_true.
Hypothesis ok_n_mapref_or : ok Wn_mapref_or.
Hypothesis ok_n_force_necessary_true : ok Wn_force_necessary_true.
Hypothesis ok_n_force_necessary_false : ok Wn_force_necessary_false.
Hypothesis ok_stamp_invalidate : ok Wstamp_invalidate.
Hypothesis ok_stamp_changed : ok Wstamp_changed.
Hypothesis ok_stamp_recomputed : ok Wstamp_recomputed.
Hypothesis ok_recompute_count : ok Wrecompute_count.
Hypothesis ok_cur_running_none : ok Wcur_running_none.
Hypothesis ok_prop_inv_push : ok Wprop_inv_push.
Hypothesis ok_prop_inv_pop : ok Wprop_inv_pop.
Hypothesis ok_n_in_has_true : ok Wn_in_has_true.
Hypothesis ok_n_in_has_false : ok Wn_in_has_false.
Hypothesis ok_has_push : ok Whas_push.
Hypothesis ok_has_clear : ok Whas_clear.
Hypothesis ok_run_ouh_push : ok Wrun_ouh_push.
Hypothesis ok_run_ouh_clear : ok Wrun_ouh_clear.
Hypothesis ok_n_num_handlers_incr : ok Wn_num_handlers_incr.
Hypothesis ok_n_num_handlers_decr : ok Wn_num_handlers_decr.
Hypothesis ok_n_handler_new : ok Wn_handler_new.
Hypothesis ok_n_handler_prev : ok Wn_handler_prev.
Hypothesis ok_o_next_token : ok Wo_next_token.
Hypothesis ok_o_handler_new : ok Wo_handler_new.
Hypothesis ok_o_handler_remove : ok Wo_handler_remove.
Hypothesis ok_o_handler_prev : ok Wo_handler_prev.
Hypothesis ok_running_obs : ok Wrunning_obs.
Hypothesis ok_bind_new : ok Wbind_new.
Hypothesis ok_b_nodes : ok Wb_nodes.
Hypothesis ok_b_created_clear : ok Wb_created_clear.
Hypothesis ok_b_created_push : ok Wb_created_push.
Hypothesis ok_b_gen : ok Wb_gen.
Hypothesis ok_b_rhs : ok Wb_rhs.
Hypothesis ok_cur_scope : ok Wcur_scope.
Hypothesis ok_memo_new : ok Wmemo_new.
Hypothesis ok_memo_store : ok Wmemo_store.
Hypothesis ok_var_new : ok Wvar_new.
Hypothesis ok_stamp_set_at : ok Wstamp_set_at.
Hypothesis ok_v_value : ok Wv_value.
Hypothesis ok_v_pending_some : ok Wv_pending_some.
Hypothesis ok_v_pending_self : ok Wv_pending_self.
Hypothesis ok_v_pending_none : ok Wv_pending_none.
Hypothesis ok_v_node_none : ok Wv_node_none.
Hypothesis ok_v_handles : ok Wv_handles.
Hypothesis ok_set_during_push : ok Wset_during_push.
Hypothesis ok_set_during_clear : ok Wset_during_clear.
Hypothesis ok_dead_vars_push : ok Wdead_vars_push.
Hypothesis ok_dead_vars_clear : ok Wdead_vars_clear.
Hypothesis ok_obs_new : ok Wobs_new.
Hypothesis ok_new_obs_clear : ok Wnew_obs_clear.
Hypothesis ok_all_obs_push : ok Wall_obs_push.
Hypothesis ok_all_obs_remove : ok Wall_obs_remove.
Hypothesis ok_disallowed_clear : ok Wdisallowed_clear.
Hypothesis ok_disallowed_push : ok Wdisallowed_push.
Hypothesis ok_o_inuse : ok Wo_inuse.
Hypothesis ok_o_unlinked : ok Wo_unlinked.
Hypothesis ok_o_unlinked_clear : ok Wo_unlinked_clear.
Hypothesis ok_o_disallowed : ok Wo_disallowed.
Hypothesis ok_n_observer_link : ok Wn_observer_link.
Hypothesis ok_n_observer_unlink : ok Wn_observer_unlink.
Hypothesis ok_o_handles_incr : ok Wo_handles_incr.
Hypothesis ok_o_handles_decr : ok Wo_handles_decr.
Hypothesis ok_expert_new : ok Wexpert_new.
Hypothesis ok_edge_new : ok Wedge_new.
Hypothesis ok_ed_seen : ok Wed_seen.
Hypothesis ok_ed_index : ok Wed_index.
Hypothesis ok_ex_unobserved : ok Wex_unobserved.
Hypothesis ok_ex_invalid_incr : ok Wex_invalid_incr.
Hypothesis ok_ex_invalid_decr : ok Wex_invalid_decr.
Hypothesis ok_ex_force_stale : ok Wex_force_stale.
Hypothesis ok_ex_child_push : ok Wex_child_push.
Hypothesis ok_ex_child_pop : ok Wex_child_pop.
Hypothesis ok_ex_child_swap : ok Wex_child_swap.
Hypothesis ok_ex_ran : ok Wex_ran.
Hypothesis ok_perkey_new : ok Wperkey_new.
Hypothesis ok_pk_acc_del : ok Wpk_acc_del.
Hypothesis ok_pk_acc_set : ok Wpk_acc_set.
Hypothesis ok_pk_nodes_del : ok Wpk_nodes_del.
Hypothesis ok_pk_nodes_add : ok Wpk_nodes_add.
Hypothesis ok_pk_prev : ok Wpk_prev.
Hypothesis ok_status_stabilising : ok Wstatus_stabilising.
Hypothesis ok_status_handlers : ok Wstatus_handlers.
Hypothesis ok_status_idle : ok Wstatus_idle.
Hypothesis ok_stab_num : ok Wstab_num.

(* [rch_link] and [rch_unlink] raise the heap's own tags; only their body lemmas come to depend on
   this, and only a judgment that tolerates every tag can use them *)
Hypothesis all_tags : forall t, T t.

(* [walk f]: unfold f and go down its code with the rules of Logic.v; what remains at a leaf is an
   elementary write (the judgment's lemma [fr_writes], the constructor of [write] found by its shape,
   the mask fact among the [ok_*]) or a call of a function walked earlier (hint database [walk]) *)
Ltac tag := first [apply fr_tags; qri | apply all_tags].
Ltac leaf :=
  first [ write_goal; refine (fr_writes _ _ _ _); [solve [eauto 1 with writes nocore]|assumption]
        | solve [eauto with walk nocore] ].
Ltac steps := repeat (first [logic_step tag | leaf]).
Ltac walk f := intros; unfold f; steps.

Lemma w_get_node n : J _ (get_node n). Proof. walk get_node. Qed.
Hint Resolve w_get_node : walk.
Lemma w_get_bind n : J _ (get_bind n). Proof. walk get_bind. Qed.
Hint Resolve w_get_bind : walk.
Lemma w_get_var n : J _ (get_var n). Proof. walk get_var. Qed.
Hint Resolve w_get_var : walk.
Lemma w_get_obs n : J _ (get_obs n). Proof. walk get_obs. Qed.
Hint Resolve w_get_obs : walk.
Lemma w_value_of n : J _ (value_of n). Proof. walk value_of. Qed.
Hint Resolve w_value_of : walk.
Lemma w_user_call : J _ user_call. Proof. walk user_call. Qed.
Hint Resolve w_user_call : walk.
Lemma w_get_expert x : J _ (get_expert x). Proof. walk get_expert. Qed.
Hint Resolve w_get_expert : walk.
Lemma w_get_edge x : J _ (get_edge x). Proof. walk get_edge. Qed.
Hint Resolve w_get_edge : walk.
Lemma w_get_perkey x : J _ (get_perkey x). Proof. walk get_perkey. Qed.
Hint Resolve w_get_perkey : walk.
Lemma w_edge_on_change p e : J _ (edge_on_change p e). Proof. walk edge_on_change. Qed.
Hint Resolve w_edge_on_change : walk.
Lemma w_run_edge_callback p x ci : J _ (run_edge_callback p x ci). Proof. walk run_edge_callback. Qed.
Hint Resolve w_run_edge_callback : walk.
Lemma w_observability_change p x b : J _ (observability_change p x b). Proof. walk observability_change. Qed.
Hint Resolve w_observability_change : walk.
Lemma b_rch_link n : J _ (rch_link n). Proof. walk rch_link. Qed.
Hypothesis H_rch_link : forall n, J _ (rch_link n).
Hint Resolve H_rch_link : walk.
Lemma b_rch_unlink n : J _ (rch_unlink n). Proof. walk rch_unlink. Qed.
Hypothesis H_rch_unlink : forall n, J _ (rch_unlink n).
Hint Resolve H_rch_unlink : walk.
Lemma b_rch_insert n : J _ (rch_insert n). Proof. walk rch_insert. Qed.
Hypothesis H_rch_insert : forall n, J _ (rch_insert n).
Hint Resolve H_rch_insert : walk.
Lemma b_rch_remove n : J _ (rch_remove n). Proof. walk rch_remove. Qed.
Hypothesis H_rch_remove : forall n, J _ (rch_remove n).
Hint Resolve H_rch_remove : walk.
Lemma b_rch_scan fuel : J _ (rch_scan fuel).
Proof. induction fuel; simpl; steps. Qed.
Hypothesis H_rch_scan : forall fuel, J _ (rch_scan fuel).
Hint Resolve H_rch_scan : walk.
Lemma b_rch_remove_min : J _ rch_remove_min. Proof. walk rch_remove_min. Qed.
Hypothesis H_rch_remove_min : J _ rch_remove_min.
Hint Resolve H_rch_remove_min : walk.
Lemma b_rch_raise fuel : J _ (rch_raise fuel).
Proof. induction fuel; simpl; steps. Qed.
Hypothesis H_rch_raise : forall fuel, J _ (rch_raise fuel).
Hint Resolve H_rch_raise : walk.
Lemma b_rch_min_height : J _ rch_min_height. Proof. walk rch_min_height. Qed.
Hypothesis H_rch_min_height : J _ rch_min_height.
Hint Resolve H_rch_min_height : walk.
Lemma b_rch_increase_height n : J _ (rch_increase_height n). Proof. walk rch_increase_height. Qed.
Hypothesis H_rch_increase_height : forall n, J _ (rch_increase_height n).
Hint Resolve H_rch_increase_height : walk.
Lemma w_ahh_add_unless_mem n : J _ (ahh_add_unless_mem n). Proof. walk ahh_add_unless_mem. Qed.
Hint Resolve w_ahh_add_unless_mem : walk.
Lemma w_ahh_scan fuel h : J _ (ahh_scan fuel h).
Proof. revert h; induction fuel; intros; simpl; steps. Qed.
Hint Resolve w_ahh_scan : walk.
Lemma w_ahh_remove_min : J _ ahh_remove_min. Proof. walk ahh_remove_min. Qed.
Hint Resolve w_ahh_remove_min : walk.
Lemma b_set_height n h : J _ (set_height n h). Proof. walk set_height. Qed.
Hypothesis H_set_height : forall n h, J _ (set_height n h).
Hint Resolve H_set_height : walk.
Lemma w_ensure_height_requirement a b c d : J _ (ensure_height_requirement a b c d).
Proof. walk ensure_height_requirement. Qed.
Hint Resolve w_ensure_height_requirement : walk.
Lemma w_ahh_visit a b c : J _ (ahh_visit a b c). Proof. walk ahh_visit. Qed.
Hint Resolve w_ahh_visit : walk.
Lemma w_adjust_heights_loop fuel a b : J _ (adjust_heights_loop fuel a b).
Proof. induction fuel; simpl; steps. Qed.
Hint Resolve w_adjust_heights_loop : walk.
Lemma w_adjust_heights fuel a b : J _ (adjust_heights fuel a b). Proof. walk adjust_heights. Qed.
Hint Resolve w_adjust_heights : walk.
Lemma b_rch_set_max n : J _ (rch_set_max_height_allowed n). Proof. walk rch_set_max_height_allowed. Qed.
Hypothesis H_rch_set_max : forall n, J _ (rch_set_max_height_allowed n).
Hint Resolve H_rch_set_max : walk.
Lemma b_ahh_set_max n : J _ (ahh_set_max_height_allowed n). Proof. walk ahh_set_max_height_allowed. Qed.
Hypothesis H_ahh_set_max : forall n, J _ (ahh_set_max_height_allowed n).
Hint Resolve H_ahh_set_max : walk.
Lemma w_add_parent a b c : J _ (add_parent a b c). Proof. walk add_parent. Qed.
Hint Resolve w_add_parent : walk.
Lemma b_remove_parent a b c : J _ (remove_parent a b c). Proof. walk remove_parent. Qed.
Hypothesis H_remove_parent : forall a b c, J _ (remove_parent a b c).
Hint Resolve H_remove_parent : walk.
Lemma w_scope_height sc : J _ (scope_height sc). Proof. walk scope_height. Qed.
Hint Resolve w_scope_height : walk.
Lemma w_scope_is_necessary sc : J _ (scope_is_necessary sc). Proof. walk scope_is_necessary. Qed.
Hint Resolve w_scope_is_necessary : walk.
Lemma w_scope_is_valid sc : J _ (scope_is_valid sc). Proof. walk scope_is_valid. Qed.
Hint Resolve w_scope_is_valid : walk.
Lemma b_has n : J _ (handle_after_stabilisation n). Proof. walk handle_after_stabilisation. Qed.
Hypothesis H_has : forall n, J _ (handle_after_stabilisation n).
Hint Resolve H_has : walk.
Lemma w_maybe_has n : J _ (maybe_handle_after_stabilisation n). Proof. walk maybe_handle_after_stabilisation. Qed.
Hint Resolve w_maybe_has : walk.
Lemma w_became_necessary_both fuel :
  (forall n, J _ (became_necessary fuel n))
  /\ (forall a b c, J _ (add_parent_without_adjusting_heights fuel a b c)).
Proof.
  induction fuel as [|f [IH1 IH2]]; (split; [intros n|intros a b c]); simpl; steps.
Qed.
Lemma w_became_necessary fuel n : J _ (became_necessary fuel n).
Proof. apply w_became_necessary_both. Qed.
Hint Resolve w_became_necessary : walk.
Lemma w_add_parent_wah fuel a b c : J _ (add_parent_without_adjusting_heights fuel a b c).
Proof. apply w_became_necessary_both. Qed.
Hint Resolve w_add_parent_wah : walk.
Lemma b_remove_children_all fuel :
  (forall n, J _ (remove_children fuel n))
  /\ (forall n, J _ (check_if_unnecessary fuel n))
  /\ (forall n, J _ (became_unnecessary fuel n)).
Proof. induction fuel as [|f (IH1 & IH2 & IH3)]; (split_and!; intros n); simpl; steps. Qed.
Lemma b_remove_children fuel n : J _ (remove_children fuel n). Proof. apply b_remove_children_all. Qed.
Lemma b_check_if_unnecessary fuel n : J _ (check_if_unnecessary fuel n). Proof. apply b_remove_children_all. Qed.
Lemma b_became_unnecessary fuel n : J _ (became_unnecessary fuel n). Proof. apply b_remove_children_all. Qed.
Hypothesis H_remove_children : forall fuel n, J _ (remove_children fuel n).
Hypothesis H_check_if_unnecessary : forall fuel n, J _ (check_if_unnecessary fuel n).
Hypothesis H_became_unnecessary : forall fuel n, J _ (became_unnecessary fuel n).
Hint Resolve H_remove_children H_check_if_unnecessary H_became_unnecessary : walk.
Lemma b_remove_child_edge fuel a b c : J _ (remove_child_edge fuel a b c). Proof. walk remove_child_edge. Qed.
Hypothesis H_remove_child_edge : forall fuel a b c, J _ (remove_child_edge fuel a b c).
Hint Resolve H_remove_child_edge : walk.
Lemma b_invalidate_node fuel n : J _ (invalidate_node fuel n).
Proof. revert n; induction fuel as [|f IH]; intros n; simpl; steps. Qed.
Hypothesis H_invalidate_node : forall fuel n, J _ (invalidate_node fuel n).
Hint Resolve H_invalidate_node : walk.
Lemma w_invalidate_created fuel l : J _ (invalidate_nodes_created_on_rhs fuel l).
Proof. walk invalidate_nodes_created_on_rhs. Qed.
Hint Resolve w_invalidate_created : walk.
Lemma w_propagate_invalidity fuel : J _ (propagate_invalidity fuel).
Proof. induction fuel as [|f IH]; simpl; steps. Qed.
Hint Resolve w_propagate_invalidity : walk.
Lemma w_state_add_parent fuel a b c : J _ (state_add_parent fuel a b c).
Proof. walk state_add_parent. Qed.
Hint Resolve w_state_add_parent : walk.
Lemma b_change_child_bind_rhs fuel a b c d : J _ (change_child_bind_rhs fuel a b c d).
Proof. walk change_child_bind_rhs. Qed.
Hypothesis H_change_child_bind_rhs : forall fuel a b c d, J _ (change_child_bind_rhs fuel a b c d).
Hint Resolve H_change_child_bind_rhs : walk.
Lemma w_did_set_var x : J _ (did_set_var_while_not_stabilising x).
Proof. walk did_set_var_while_not_stabilising. Qed.
Hint Resolve w_did_set_var : walk.
Lemma w_set_var_wns x v : J _ (set_var_while_not_stabilising x v).
Proof. walk set_var_while_not_stabilising. Qed.
Hint Resolve w_set_var_wns : walk.
Lemma b_var_write x f : J _ (var_write x f). Proof. walk var_write. Qed.
Hypothesis H_var_write : forall x f, J _ (var_write x f).
Hint Resolve H_var_write : walk.
Lemma w_observer_read o : J _ (observer_read o). Proof. walk observer_read. Qed.
Hint Resolve w_observer_read : walk.
Lemma w_drop_var_handle x : J _ (drop_var_handle x). Proof. walk drop_var_handle. Qed.
Hint Resolve w_drop_var_handle : walk.
Lemma w_with_var_handle x m : J _ m -> J _ (with_var_handle x m). Proof. intros; unfold with_var_handle; steps. Qed.
Hint Extern 1 (J _ (with_var_handle _ _)) => (apply w_with_var_handle; steps) : walk.
Lemma w_create_node k : J _ (create_node k). Proof. walk create_node. Qed.
Hint Resolve w_create_node : walk.
Lemma w_create_bind l f : J _ (create_bind l f). Proof. walk create_bind. Qed.
Hint Resolve w_create_bind : walk.
Lemma w_resolve l o : J _ (resolve l o). Proof. walk resolve. Qed.
Hint Resolve w_resolve : walk.
Lemma b_memo_new f : J _ (memo_new f). Proof. walk memo_new. Qed.
Hypothesis H_memo_new : forall f, J _ (memo_new f).
Hint Resolve H_memo_new : walk.
Lemma w_memo_lookup mm k : J _ (memo_lookup mm k). Proof. walk memo_lookup. Qed.
Hint Resolve w_memo_lookup : walk.
Lemma b_memo_store m k n : J _ (memo_store m k n). Proof. walk memo_store. Qed.
Hypothesis H_memo_store : forall m k n, J _ (memo_store m k n).
Hint Resolve H_memo_store : walk.
Lemma w_within_scope {A} sc (f : M A) : J _ f -> J _ (within_scope sc f). Proof. intros; unfold within_scope; steps. Qed.
Hint Extern 1 (J _ (within_scope _ _)) => (apply w_within_scope; steps) : walk.
Lemma w_instantiate_memo fuel :
  (forall p v b r, J _ (instantiate fuel p v b r)) /\ (forall p m k, J _ (memo_call fuel p m k)).
Proof. induction fuel as [|f [IH1 IH2]]; (split; intros; simpl; steps). Qed.
Lemma w_instantiate fuel p v b r : J _ (instantiate fuel p v b r). Proof. apply w_instantiate_memo. Qed.
Hint Resolve w_instantiate : walk.
Lemma w_memo_call fuel p m k : J _ (memo_call fuel p m k). Proof. apply w_instantiate_memo. Qed.
Hint Resolve w_memo_call : walk.
Lemma w_assert_running_is_child n : J _ (assert_running_is_child n). Proof. walk assert_running_is_child. Qed.
Hint Resolve w_assert_running_is_child : walk.
Lemma w_expert_make_stale n : J _ (expert_make_stale n). Proof. walk expert_make_stale. Qed.
Hint Resolve w_expert_make_stale : walk.
Lemma w_expert_swap n a b c d : J _ (expert_swap_children_except_in_kind n a b c d).
Proof. walk expert_swap_children_except_in_kind. Qed.
Hint Resolve w_expert_swap : walk.
Lemma w_expert_add_dependency fuel n c cb : J _ (expert_add_dependency fuel n c cb). Proof. walk expert_add_dependency. Qed.
Hint Resolve w_expert_add_dependency : walk.
Lemma w_ex_swap_children x a b : J _ (ex_swap_children x a b). Proof. walk ex_swap_children. Qed.
Hint Resolve w_ex_swap_children : walk.
Lemma w_ex_pop_child_edge x : J _ (ex_pop_child_edge x). Proof. walk ex_pop_child_edge. Qed.
Hint Resolve w_ex_pop_child_edge : walk.
Lemma w_expert_remove_dependency fuel n e : J _ (expert_remove_dependency fuel n e). Proof. walk expert_remove_dependency. Qed.
Hint Resolve w_expert_remove_dependency : walk.
Lemma w_expert_invalidate fuel n : J _ (expert_invalidate fuel n). Proof. walk expert_invalidate. Qed.
Hint Resolve w_expert_invalidate : walk.
Lemma w_upgrade_unwrap n k : J _ (upgrade_unwrap n k). Proof. walk upgrade_unwrap. Qed.
Hint Resolve w_upgrade_unwrap : walk.
Lemma w_perkey_visit fuel pk kd : J _ (perkey_visit fuel pk kd). Proof. walk perkey_visit. Qed.
Hint Resolve w_perkey_visit : walk.
Lemma w_perkey_step fuel pk m : J _ (perkey_step fuel pk m). Proof. walk perkey_step. Qed.
Hint Resolve w_perkey_step : walk.
Lemma w_slot_get sl : J _ (slot_get sl). Proof. walk slot_get. Qed.
Hint Resolve w_slot_get : walk.
Lemma w_slot_set sl v : J _ (slot_set sl v). Proof. walk slot_set. Qed.
Hint Resolve w_slot_set : walk.
Lemma b_subscribe o h : J _ (subscribe o h). Proof. walk subscribe. Qed.
Hypothesis H_subscribe : forall o h, J _ (subscribe o h).
Hint Resolve H_subscribe : walk.
Lemma b_unsubscribe o a b : J _ (unsubscribe o a b). Proof. walk unsubscribe. Qed.
Hypothesis H_unsubscribe : forall o a b, J _ (unsubscribe o a b).
Hint Resolve H_unsubscribe : walk.
Lemma w_with_handle h k : (forall n, J _ (k n)) -> J _ (with_handle h k). Proof. intros; unfold with_handle; steps. Qed.
Hint Extern 1 (J _ (with_handle _ _)) => (apply w_with_handle; intros ?; steps) : walk.
Lemma w_set_max_height n : J _ (set_max_height_allowed n). Proof. walk set_max_height_allowed. Qed.
Hint Resolve w_set_max_height : walk.
Lemma w_run_effect fuel a e : J _ (run_effect fuel a e).
Proof. destruct e; unfold run_effect; steps. Qed.
Hint Resolve w_run_effect : walk.
Lemma w_run_effects fuel a l : J _ (run_effects fuel a l). Proof. walk run_effects. Qed.
Hint Resolve w_run_effects : walk.
Lemma w_should_cutoff n c a b : J _ (should_cutoff n c a b). Proof. walk should_cutoff. Qed.
Hint Resolve w_should_cutoff : walk.
Lemma w_child_changed fuel : forall p c ci old, J _ (child_changed fuel p c ci old).
Proof. induction fuel as [|f IH]; intros; simpl; steps. Qed.
Hint Resolve w_child_changed : walk.
Lemma w_can_recompute_now p c : J _ (parent_iter_can_recompute_now p c).
Proof. walk parent_iter_can_recompute_now. Qed.
Hint Resolve w_can_recompute_now : walk.
Lemma w_mcv_manual fuel n old dc rc : J _ (maybe_change_value_manual fuel n old dc rc).
Proof. walk maybe_change_value_manual. Qed.
Hint Resolve w_mcv_manual : walk.
Lemma w_mcv fuel n v : J _ (maybe_change_value fuel n v). Proof. walk maybe_change_value. Qed.
Hint Resolve w_mcv : walk.
Lemma w_unwrap_value n s : J _ (unwrap_value n s). Proof. walk unwrap_value. Qed.
Hint Resolve w_unwrap_value : walk.
Lemma w_copy_child_bindrhs fuel n c : J _ (copy_child_bindrhs fuel n c). Proof. walk copy_child_bindrhs. Qed.
Hint Resolve w_copy_child_bindrhs : walk.
Lemma w_recompute_body fuel n : J _ (recompute_body fuel n). Proof. walk recompute_body. Qed.
Hint Resolve w_recompute_body : walk.
Lemma w_recompute_one fuel n : J _ (recompute_one fuel n). Proof. walk recompute_one. Qed.
Hint Resolve w_recompute_one : walk.
Lemma w_recompute fuel : forall n, J _ (recompute fuel n).
Proof. induction fuel as [|f IH]; intros; simpl; steps. Qed.
Hint Resolve w_recompute : walk.
(* Api.v *)
Lemma b_observe n : J _ (observe n). Proof. walk observe. Qed.
Hypothesis H_observe : forall n, J _ (observe n).
Hint Resolve H_observe : walk.
Lemma b_add_new_observers fuel : J _ (add_new_observers fuel). Proof. walk add_new_observers. Qed.
Hypothesis H_add_new_observers : forall fuel, J _ (add_new_observers fuel).
Hint Resolve H_add_new_observers : walk.
Lemma b_unlink_observer fuel o ob : J _ (unlink_observer fuel o ob). Proof. walk unlink_observer. Qed.
Hypothesis H_unlink_observer : forall fuel o ob, J _ (unlink_observer fuel o ob).
Hint Resolve H_unlink_observer : walk.
Lemma b_unlink_disallowed fuel : J _ (unlink_disallowed_observers fuel). Proof. walk unlink_disallowed_observers. Qed.
Hypothesis H_unlink_disallowed : forall fuel, J _ (unlink_disallowed_observers fuel).
Hint Resolve H_unlink_disallowed : walk.
Lemma b_disallow o : J _ (disallow_future_use o). Proof. walk disallow_future_use. Qed.
Hypothesis H_disallow : forall o, J _ (disallow_future_use o).
Hint Resolve H_disallow : walk.
Lemma w_state_unsubscribe a b : J _ (state_unsubscribe a b). Proof. walk state_unsubscribe. Qed.
Hint Resolve w_state_unsubscribe : walk.
Lemma w_node_update_of n : J _ (node_update_of n). Proof. walk node_update_of. Qed.
Hint Resolve w_node_update_of : walk.
Lemma w_really_run o i h n nu : J _ (really_run o i h n nu). Proof. walk really_run. Qed.
Hint Resolve w_really_run : walk.
Lemma w_handler_run o i h n nu now : J _ (handler_run o i h n nu now). Proof. walk handler_run. Qed.
Hint Resolve w_handler_run : walk.
Lemma w_run_all o n nu now : J _ (run_all o n nu now). Proof. walk run_all. Qed.
Hint Resolve w_run_all : walk.
Lemma b_add_on_update_handler n h : J _ (add_on_update_handler n h). Proof. walk add_on_update_handler. Qed.
Hypothesis H_add_on_update_handler : forall n h, J _ (add_on_update_handler n h).
Hint Resolve H_add_on_update_handler : walk.
Lemma w_node_really_run n i h nu : J _ (node_really_run n i h nu). Proof. walk node_really_run. Qed.
Hint Resolve w_node_really_run : walk.
Lemma w_node_handler_run n i h nu now : J _ (node_handler_run n i h nu now). Proof. walk node_handler_run. Qed.
Hint Resolve w_node_handler_run : walk.
Lemma w_run_ouh n nu now : J _ (run_on_update_handlers n nu now). Proof. walk run_on_update_handlers. Qed.
Hint Resolve w_run_ouh : walk.
Lemma w_stabilise_loop fuel : J _ (stabilise_loop fuel).
Proof. induction fuel as [|f IH]; simpl; steps. Qed.
Hint Resolve w_stabilise_loop : walk.
Lemma w_stabilise_start_links fuel : J _ (stabilise_start_links fuel).
Proof. walk stabilise_start_links. Qed.
Hint Resolve w_stabilise_start_links : walk.
Lemma b_stabilise_end_prepare : J _ stabilise_end_prepare. Proof. walk stabilise_end_prepare. Qed.
Hypothesis H_stabilise_end_prepare : J _ stabilise_end_prepare.
Hint Resolve H_stabilise_end_prepare : walk.
Lemma w_stabilise_end_run_handlers : J _ stabilise_end_run_handlers.
Proof. walk stabilise_end_run_handlers. Qed.
Hint Resolve w_stabilise_end_run_handlers : walk.
Lemma w_stabilise_start fuel : J _ (stabilise_start fuel). Proof. walk stabilise_start. Qed.
Hint Resolve w_stabilise_start : walk.
Lemma w_stabilise_end : J _ stabilise_end. Proof. walk stabilise_end. Qed.
Hint Resolve w_stabilise_end : walk.
Lemma w_stabilise fuel : J _ (stabilise fuel). Proof. walk stabilise. Qed.
Hint Resolve w_stabilise : walk.
Lemma w_hnode_get st h : J _ (hnode_get st h). Proof. walk hnode_get. Qed.
Hint Resolve w_hnode_get : walk.
Lemma w_step fuel st o : J _ (step fuel st o).
Proof. destruct o; unfold step; steps. Qed.
Hint Resolve w_step : walk.

End walk.

(* ---- using the walk.  A relation or invariant declares its judgment of the writes as an instance
   of [Frame]; [frame w] then instantiates the walk's lemma [w] for the judgment in the goal. *)
Create HintDb frame discriminated.

(* the premises of an instantiated lemma: a mask fact computes to True; an assumed function is looked
   up among the lemmas the relation has registered, or is itself an instance of the walk *)
Ltac frame w := intros; eapply (w _ _ _ _); frame_side
with frame_side := first [exact I | solve [auto with frame nocore] | intros; first [exact I | call]]
with call :=
  lazymatch goal with
  | |- _ (get_node _) => frame w_get_node
  | |- _ (get_bind _) => frame w_get_bind
  | |- _ (get_var _) => frame w_get_var
  | |- _ (get_obs _) => frame w_get_obs
  | |- _ (value_of _) => frame w_value_of
  | |- _ user_call => frame w_user_call
  | |- _ (get_expert _) => frame w_get_expert
  | |- _ (get_edge _) => frame w_get_edge
  | |- _ (get_perkey _) => frame w_get_perkey
  | |- _ (edge_on_change _ _) => frame w_edge_on_change
  | |- _ (run_edge_callback _ _ _) => frame w_run_edge_callback
  | |- _ (observability_change _ _ _) => frame w_observability_change
  | |- _ (rch_link _) => frame b_rch_link
  | |- _ (rch_unlink _) => frame b_rch_unlink
  | |- _ (rch_insert _) => frame b_rch_insert
  | |- _ (rch_remove _) => frame b_rch_remove
  | |- _ (rch_scan _) => frame b_rch_scan
  | |- _ rch_remove_min => frame b_rch_remove_min
  | |- _ (rch_raise _) => frame b_rch_raise
  | |- _ rch_min_height => frame b_rch_min_height
  | |- _ (rch_increase_height _) => frame b_rch_increase_height
  | |- _ (ahh_add_unless_mem _) => frame w_ahh_add_unless_mem
  | |- _ (ahh_scan _ _) => frame w_ahh_scan
  | |- _ ahh_remove_min => frame w_ahh_remove_min
  | |- _ (set_height _ _) => frame b_set_height
  | |- _ (ensure_height_requirement _ _ _ _) => frame w_ensure_height_requirement
  | |- _ (ahh_visit _ _ _) => frame w_ahh_visit
  | |- _ (adjust_heights_loop _ _ _) => frame w_adjust_heights_loop
  | |- _ (adjust_heights _ _ _) => frame w_adjust_heights
  | |- _ (rch_set_max_height_allowed _) => frame b_rch_set_max
  | |- _ (ahh_set_max_height_allowed _) => frame b_ahh_set_max
  | |- _ (add_parent _ _ _) => frame w_add_parent
  | |- _ (remove_parent _ _ _) => frame b_remove_parent
  | |- _ (scope_height _) => frame w_scope_height
  | |- _ (scope_is_necessary _) => frame w_scope_is_necessary
  | |- _ (scope_is_valid _) => frame w_scope_is_valid
  | |- _ (handle_after_stabilisation _) => frame b_has
  | |- _ (maybe_handle_after_stabilisation _) => frame w_maybe_has
  | |- _ (became_necessary _ _) => frame w_became_necessary
  | |- _ (add_parent_without_adjusting_heights _ _ _ _) => frame w_add_parent_wah
  | |- _ (remove_children _ _) => frame b_remove_children
  | |- _ (check_if_unnecessary _ _) => frame b_check_if_unnecessary
  | |- _ (became_unnecessary _ _) => frame b_became_unnecessary
  | |- _ (remove_child_edge _ _ _ _) => frame b_remove_child_edge
  | |- _ (invalidate_node _ _) => frame b_invalidate_node
  | |- _ (invalidate_nodes_created_on_rhs _ _) => frame w_invalidate_created
  | |- _ (propagate_invalidity _) => frame w_propagate_invalidity
  | |- _ (state_add_parent _ _ _ _) => frame w_state_add_parent
  | |- _ (change_child_bind_rhs _ _ _ _ _) => frame b_change_child_bind_rhs
  | |- _ (did_set_var_while_not_stabilising _) => frame w_did_set_var
  | |- _ (set_var_while_not_stabilising _ _) => frame w_set_var_wns
  | |- _ (var_write _ _) => frame b_var_write
  | |- _ (observer_read _) => frame w_observer_read
  | |- _ (drop_var_handle _) => frame w_drop_var_handle
  | |- _ (create_node _) => frame w_create_node
  | |- _ (create_bind _ _) => frame w_create_bind
  | |- _ (resolve _ _) => frame w_resolve
  | |- _ (memo_new _) => frame b_memo_new
  | |- _ (memo_lookup _ _) => frame w_memo_lookup
  | |- _ (memo_store _ _ _) => frame b_memo_store
  | |- _ (instantiate _ _ _ _ _) => frame w_instantiate
  | |- _ (memo_call _ _ _ _) => frame w_memo_call
  | |- _ (assert_running_is_child _) => frame w_assert_running_is_child
  | |- _ (expert_make_stale _) => frame w_expert_make_stale
  | |- _ (expert_swap_children_except_in_kind _ _ _ _ _) => frame w_expert_swap
  | |- _ (expert_add_dependency _ _ _ _) => frame w_expert_add_dependency
  | |- _ (ex_swap_children _ _ _) => frame w_ex_swap_children
  | |- _ (ex_pop_child_edge _) => frame w_ex_pop_child_edge
  | |- _ (expert_remove_dependency _ _ _) => frame w_expert_remove_dependency
  | |- _ (expert_invalidate _ _) => frame w_expert_invalidate
  | |- _ (upgrade_unwrap _ _) => frame w_upgrade_unwrap
  | |- _ (perkey_visit _ _ _) => frame w_perkey_visit
  | |- _ (perkey_step _ _ _) => frame w_perkey_step
  | |- _ (slot_get _) => frame w_slot_get
  | |- _ (slot_set _ _) => frame w_slot_set
  | |- _ (subscribe _ _) => frame b_subscribe
  | |- _ (unsubscribe _ _ _) => frame b_unsubscribe
  | |- _ (set_max_height_allowed _) => frame w_set_max_height
  | |- _ (run_effect _ _ _) => frame w_run_effect
  | |- _ (run_effects _ _ _) => frame w_run_effects
  | |- _ (should_cutoff _ _ _ _) => frame w_should_cutoff
  | |- _ (child_changed _ _ _ _ _) => frame w_child_changed
  | |- _ (parent_iter_can_recompute_now _ _) => frame w_can_recompute_now
  | |- _ (maybe_change_value_manual _ _ _ _ _) => frame w_mcv_manual
  | |- _ (maybe_change_value _ _ _) => frame w_mcv
  | |- _ (unwrap_value _ _) => frame w_unwrap_value
  | |- _ (copy_child_bindrhs _ _ _) => frame w_copy_child_bindrhs
  | |- _ (recompute_body _ _) => frame w_recompute_body
  | |- _ (recompute_one _ _) => frame w_recompute_one
  | |- _ (recompute _ _) => frame w_recompute
  | |- _ (observe _) => frame b_observe
  | |- _ (add_new_observers _) => frame b_add_new_observers
  | |- _ (unlink_observer _ _ _) => frame b_unlink_observer
  | |- _ (unlink_disallowed_observers _) => frame b_unlink_disallowed
  | |- _ (disallow_future_use _) => frame b_disallow
  | |- _ (state_unsubscribe _ _) => frame w_state_unsubscribe
  | |- _ (node_update_of _) => frame w_node_update_of
  | |- _ (really_run _ _ _ _ _) => frame w_really_run
  | |- _ (handler_run _ _ _ _ _ _) => frame w_handler_run
  | |- _ (run_all _ _ _ _) => frame w_run_all
  | |- _ (add_on_update_handler _ _) => frame b_add_on_update_handler
  | |- _ (node_really_run _ _ _ _) => frame w_node_really_run
  | |- _ (node_handler_run _ _ _ _ _) => frame w_node_handler_run
  | |- _ (run_on_update_handlers _ _ _) => frame w_run_ouh
  | |- _ (stabilise_loop _) => frame w_stabilise_loop
  | |- _ (stabilise_start_links _) => frame w_stabilise_start_links
  | |- _ stabilise_end_prepare => frame b_stabilise_end_prepare
  | |- _ stabilise_end_run_handlers => frame w_stabilise_end_run_handlers
  | |- _ (stabilise_start _) => frame w_stabilise_start
  | |- _ stabilise_end => frame w_stabilise_end
  | |- _ (stabilise _) => frame w_stabilise
  | |- _ (hnode_get _ _) => frame w_hnode_get
  | |- _ (step _ _ _) => frame w_step
  end.

(* the same walk over a computation that is not one of the engine's functions *)
Ltac go :=
  repeat first
    [ logic_step ltac:(first [exact I | qri])
    | write_goal; refine (fr_writes _ _ _ _); [solve [eauto 1 with writes nocore]|exact I]
    | solve [eauto with frame nocore]
    | lazymatch goal with
      | |- _ (within_scope _ _) => eapply (w_within_scope _ _ _ _); [exact I|]
      | |- _ (with_handle _ _) => eapply (w_with_handle _ _ _ _); intros
      | |- _ (with_var_handle _ _) => eapply (w_with_var_handle _ _ _ _)
      | |- _ => call
      end ].

(* ---- histories: between two operations [run] clears the event buffer, collects, and forgets whose
   handler table was borrowed; a judgment that holds of these three writes and of [step] holds along
   every history *)
Lemma frame_run_pres (R : relation state) `{!PreOrder R} {T ok} `{!Frame (@pres R) T ok} fuel :
  ok Wevents_clear -> ok Wcollect -> ok Wrunning_obs -> (forall st o, pres R (step fuel st o)) ->
  forall ops st s, Forall (fun e => R s e.2) (run fuel ops st s).
Proof.
  intros H1 H2 H3. apply (run_pres R fuel).
  - exact (fr_writes (J := @pres R) _ _ w_events_clear H1).
  - intros s. etrans; [exact (fr_writes (J := @pres R) _ _ (w_collect []) H2 s)|exact (fr_writes (J := @pres R) _ _ (w_running_obs None) H3 _)].
Qed.
Lemma frame_run_safe (I : state -> Prop) Q {ok} `{!Frame (@safe I Q) Q ok} fuel :
  ok Wevents_clear -> ok Wcollect -> ok Wrunning_obs -> (forall st o, safe I Q (step fuel st o)) ->
  forall ops st s, I s -> Forall (fun e => forall t, e.1.1 = Panic t -> Q t) (run fuel ops st s).
Proof.
  intros H1 H2 H3. apply (run_safe I Q fuel).
  - intros s Hs. exact (proj1 (fr_writes (J := @safe I Q) _ _ w_events_clear H1 s Hs)).
  - intros s Hs. apply (fr_writes (J := @safe I Q) _ _ (w_running_obs None) H3), (fr_writes (J := @safe I Q) _ _ (w_collect []) H2), Hs.
Qed.
Lemma frame_run_while_ok (I : state -> Prop) {T ok} `{!Frame (@okp2 I I) T ok} fuel :
  ok Wevents_clear -> ok Wcollect -> ok Wrunning_obs -> (forall st o, okp I (step fuel st o)) ->
  forall ops st s, I s -> while_ok (run fuel ops st s) I.
Proof.
  intros H1 H2 H3. apply (run_while_ok I fuel).
  - intros s Hs. exact (fr_writes (J := @okp2 I I) _ _ w_events_clear H1 s tt _ Hs eq_refl).
  - intros s Hs. eapply (fr_writes (J := @okp2 I I) _ _ (w_running_obs None) H3); [|reflexivity].
    exact (fr_writes (J := @okp2 I I) _ _ (w_collect []) H2 s tt _ Hs eq_refl).
Qed.
