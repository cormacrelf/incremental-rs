(* C13: what the rest of a history looks like once a stabilisation has failed.

   - no read moves any more: whatever the program does next (a further stabilise included, which
     refuses), every observer it has not itself disallowed or dropped keeps returning what it returned
     right after the failure.  If the panic came from an update handler the status is
     RunningOnUpdateHandlers, the propagation phase had finished, and what the reads return are the
     fully propagated values; if it came from a node function the status is Stabilising and every read
     is refused (FrameStatus.run_reads_refused).
   - giving up handles (observers, variables, node handles, the handles bind closures exported) never
     panics, in any state. *)
From stdpp Require Import base list option numbers.
From RecordUpdate Require Import RecordUpdate.
From Incr.Model Require Import Base Live Engine Api.
From Incr.Proofs Require Import Pres Steps FrameStatus FrameRead Reads.

(* the part of Rread that matters for one observer *)
Definition Rro (o : oid) : relation state := fun s s' =>
  st_status s' = st_status s
  /\ (forall n x, nodes s !! n = Some x -> exists x', nodes s' !! n = Some x' /\ node_val_same x x')
  /\ (forall ob, obss s !! o = Some ob -> exists ob', obss s' !! o = Some ob' /\ obs_read_same ob ob').
Global Instance Rro_preorder o : PreOrder (Rro o).
Proof.
  split.
  - intros s. split_and!; try done; intros; eexists; done.
  - intros a b c (S1&H1&O1) (S2&H2&O2). split_and!; try congruence.
    + intros n x Hx. destruct (H1 n x Hx) as (x' & Hx' & A1 & A2 & A3).
      destruct (H2 n x' Hx') as (x'' & Hx'' & B1 & B2 & B3). exists x''. split; [done|]. split_and!; congruence.
    + intros ob Ho. destruct (O1 ob Ho) as (ob' & Ho' & A1 & A2).
      destruct (O2 ob' Ho') as (ob'' & Ho'' & B1 & B2). exists ob''. split; [done|]. split; congruence.
Qed.
Lemma Rro_of_RreadX t o s s' : o <> t -> RreadX t s s' -> Rro o s s'.
Proof. intros Hne (H1&H2&H3). split_and!; try done. intros ob. by apply H3. Qed.
Lemma Rro_of_Rread o s s' : Rread s s' -> Rro o s s'.
Proof. intros (H1&H2&H3). split_and!; try done. intros ob. apply H3. Qed.

Lemma Rro_read o s s' ob :
  Rro o s s' -> obss s !! o = Some ob -> is_Some (nodes s !! o_observing ob) ->
  read_result s' o = read_result s o.
Proof.
  intros (Hst & Hn & Hob) Ho Hex. destruct (Hob ob Ho) as (ob' & Ho' & Hs & Hobs).
  unfold read_result. rewrite (observer_read_eq o s ob Ho), (observer_read_eq o s' ob' Ho'). cbn [fst].
  rewrite Hst, Hs, Hobs. rewrite (node_value_frame s s' Hn) by done. done.
Qed.

Lemma Rro_fields o s s' : st_status s' = st_status s -> nodes s' = nodes s -> obss s' = obss s -> Rro o s s'.
Proof. intros H1 H2 H3. split_and!; [done|rewrite H2|rewrite H3]; intros; eexists; done. Qed.

Lemma Rro_end_of_op o s : Rro o s (end_of_op s).
Proof. etrans; [apply Rro_of_Rread, (Rread_collect [])|by apply Rro_fields]. Qed.

(* one operation of the history (the op and the end-of-op collection), either in a poisoned state or
   when the operation is not a stabilise *)
Lemma step_Rro fuel st op s o :
  st_status s <> NotStabilising \/ op <> OpStabilise -> expert_op op = false -> op_target op <> Some o ->
  Rro o s (end_of_op (step fuel st op (s <| events := [] |>)).2).
Proof.
  intros Hp Hne Ht. etrans; [by apply (Rro_fields o s (s <| events := [] |>))|]. etrans; [|apply Rro_end_of_op].
  assert (op = OpStabilise \/ op <> OpStabilise) as [->|Hns] by (destruct op; (by left) || (by right)).
  - destruct Hp as [Hp|Hp]; [|done]. cbn [step]. unfold bindM. rewrite stabilise_refuses by done. done.
  - pose proof (step_readx fuel st op Hns Hne) as H.
    destruct (op_target op) as [t|] eqn:E.
    + apply (Rro_of_RreadX t); [congruence|apply H].
    + apply Rro_of_Rread, H.
Qed.

(* C07, C12, C13: through operations that are neither expert operations nor aimed at the observer, and
   of which none is a stabilise unless the state is poisoned, the observer's read stays what it was *)
Lemma run_reads_frozen fuel ops st s o ob :
  st_status s <> NotStabilising \/ Forall (fun op => op <> OpStabilise) ops ->
  Forall (fun op => expert_op op = false /\ op_target op <> Some o) ops ->
  obss s !! o = Some ob -> is_Some (nodes s !! o_observing ob) ->
  Forall (fun e => read_result e.2 o = read_result s o) (run fuel ops st s).
Proof.
  intros Hp Hops Ho Hex.
  eapply Forall_impl; [|apply (run_invariant_ops (fun op => In op ops) (Rro o s)); [|by apply Forall_forall|reflexivity]].
  - intros e R. by eapply Rro_read.
  - intros st' op s1 Hin R. etrans; [exact R|]. rewrite Forall_forall in Hops. destruct (Hops op Hin).
    apply step_Rro; [|done..]. destruct R as [-> _].
    destruct Hp as [|Hp]; [by left|right]. rewrite Forall_forall in Hp. auto.
Qed.

(* ---- giving up handles never panics *)
Definition is_drop_op (o : op) : bool :=
  match o with
  | OpDropObs _ | OpDisallow _ | OpDropNode _ | OpDropVar _ | OpDropExports => true
  | _ => false
  end.

(* Ok, or the history named a handle that was never created (outside the DSL) *)
Definition no_real_panic {A} (r : res A) : Prop :=
  match r with Ok _ => True | Panic (PModelGap _) => True | _ => False end.

Lemma disallow_no_panic o s : no_real_panic (disallow_future_use o s).1.
Proof.
  unfold disallow_future_use, get_obs, upd_obs, modify, bindM, get, ret, panic. cbv beta iota.
  destruct (obss s !! o) as [ob|]; [|done]. cbv beta iota. destruct (o_state ob); done.
Qed.

Lemma drops_never_panic fuel st o s : is_drop_op o = true -> no_real_panic (step fuel st o s).1.
Proof.
  intros Hd. destruct o; try discriminate Hd; cbn [step].
  - (* OpDropObs *)
    unfold get_obs, upd_obs, modify, bindM, get, ret, panic. cbv beta iota.
    destruct (obss s !! o) as [ob|]; [|done]. cbv beta iota.
    case_bool_decide; [|done].
    match goal with |- context [disallow_future_use o ?s'] => pose proof (disallow_no_panic o s') as Hd2;
      destruct (disallow_future_use o s') as [[[]| |] ?] end; done.
  - (* OpDisallow *)
    unfold bindM. pose proof (disallow_no_panic o s) as H.
    destruct (disallow_future_use o s) as [[[]| |] ?]; done.
  - (* OpDropNode *) done.
  - (* OpDropVar *)
    unfold drop_var_handle, get_var, upd_var, modify, bindM, get, ret, panic. cbv beta iota.
    destruct (vars s !! x) as [v|]; [|done]. cbv beta iota. case_bool_decide; done.
  - (* OpDropExports *) done.
Qed.
