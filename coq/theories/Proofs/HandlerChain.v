(* C09: from "the node changed" to "its handlers are told" — the links of the chain. *)
From stdpp Require Import base list option numbers.
From RecordUpdate Require Import RecordUpdate.
From Incr.Model Require Import Base Live Engine Api.
From Incr.Proofs Require Import Pres HandlerQueue FrameHasGrow FrameHasInv.

Lemma history_has_inv fuel max_height dbg ops :
  Forall (fun e => has_inv e.2) (run_history fuel max_height dbg ops).
Proof. unfold run_history. apply run_has_inv. apply has_inv_init. Qed.

(* 1. an unsuppressed result of a live node with at least one handler puts the node on the stack,
      whatever happens afterwards in maybe_change_value *)
Lemma mcv_manual_queues fuel n old rc s x :
  has_inv s -> nodes s !! n = Some x -> n_live x = true -> (0 < n_num_handlers x)%Z ->
  n ∈ has_stack (maybe_change_value_manual fuel n old true rc s).2.
Proof.
  intros Hi Hx Hl Hh. unfold maybe_change_value_manual. cbn [negb].
  erewrite bind_eq by reflexivity. erewrite bind_eq by reflexivity.
  match goal with |- context [bindM (maybe_handle_after_stabilisation n) ?k ?s0] => set (s2 := s0); set (rest := k) end.
  assert (has_inv s2) as Hi2.
  { assert (Rhas s s2) as [R _]; [|by apply R]. subst s2.
    apply (Rhas_alter _ _ n (fun x => x <| n_changed_at := stab_num s |>)); [reflexivity|reflexivity|].
    intros ? ? ?; simpl in *; done. }
  assert (nodes s2 !! n = Some (x <| n_changed_at := stab_num s |>)) as Hx2.
  { subst s2. simpl. by rewrite list_lookup_alter, Hx. }
  unfold bindM at 1. unfold maybe_handle_after_stabilisation. unfold bindM at 1, get_node at 1. unfold bindM at 1, get at 1.
  cbv beta iota. rewrite Hx2. unfold ret at 1. cbv beta iota. simpl n_num_handlers. rewrite bool_decide_eq_true_2 by done.
  destruct (handle_after_stabilisation_queues n s2 _ Hi2 Hx2 Hl) as [Hok Hin].
  destruct (handle_after_stabilisation n s2) as [r s3] eqn:E3. simpl in Hok, Hin. subst r.
  assert (pres Rhas (rest tt)) as P by (subst rest; cbv beta; go).
  destruct (P s3) as [_ G]. by apply G.
Qed.

(* 2. it stays there until the propagation phase is over *)
Lemma queued_until_end_of_propagation fuel s n :
  n ∈ has_stack s -> n ∈ has_stack (stabilise_loop fuel s).2.
Proof. intros Hn. destruct (has_stabilise_loop fuel s) as [_ G]. by apply G. Qed.

