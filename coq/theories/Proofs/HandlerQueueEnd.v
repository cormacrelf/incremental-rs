(* C09: the end of a stabilisation empties the handler stack into the run queue. *)
From stdpp Require Import base list option numbers.
From RecordUpdate Require Import RecordUpdate.
From Incr.Model Require Import Base Live Engine Api.
From Incr.Proofs Require Import Pres HandlerQueue FrameHasGrow Handlers.

(* the loop body of stabilise_end_prepare over the stack *)
Definition queue_report (n : nid) : M unit :=
  x <- get_node n ;;
  if negb (n_live x) then ret tt else
  upd_node n (fun x => x <| n_in_has := false |>) ;;;
  nu <- node_update_of n ;;
  modify (fun s => s <| run_ouh := run_ouh s ++ [(n, nu)] |>).

(* a live node is reported and loses its flag; nothing else about liveness or flags changes *)
Lemma queue_report_run n st x : nodes st !! n = Some x ->
  exists st', queue_report n st = (Ok tt, st')
    /\ has_stack st' = has_stack st
    /\ (forall e, e ∈ run_ouh st -> e ∈ run_ouh st')
    /\ (n_live x = true -> exists nu, (n, nu) ∈ run_ouh st')
    /\ (forall m y, nodes st !! m = Some y -> exists y', nodes st' !! m = Some y' /\ n_live y' = n_live y)
    /\ (forall m y', nodes st' !! m = Some y' -> n_live y' = true -> n_in_has y' = true ->
          m <> n /\ exists y, nodes st !! m = Some y /\ n_live y = true /\ n_in_has y = true).
Proof.
  intros Hx. unfold queue_report. rewrite (bind_eq _ _ _ _ _ (get_node_eq n st x Hx)).
  destruct (n_live x) eqn:Hl; cbn [negb].
  2:{ eexists. split; [reflexivity|]. split_and!; try done; [by eauto|].
      intros m y' Hy' Hl' Hh. split; [intros ->; congruence|by eauto]. }
  erewrite bind_eq by reflexivity.
  erewrite bind_eq by (apply node_update_of_eq; simpl; by rewrite list_lookup_alter, Hx).
  eexists. split; [reflexivity|]. simpl. split_and!; try done.
  - intros e He. apply elem_of_app. by left.
  - intros _. eexists. apply elem_of_app. right. apply elem_of_list_singleton. reflexivity.
  - intros m y Hy. destruct (decide (n = m)) as [->|Hne]; [rewrite list_lookup_alter, Hy|rewrite list_lookup_alter_ne by done]; by eauto.
  - intros m y' Hy' Hl' Hh. destruct (decide (n = m)) as [->|Hne].
    + rewrite list_lookup_alter, Hx in Hy'. injection Hy' as <-. discriminate Hh.
    + rewrite list_lookup_alter_ne in Hy' by done. by eauto.
Qed.

Lemma queue_loop_spec l : forall st,
  (forall n, n ∈ l -> is_Some (nodes st !! n)) ->
  has_stack st = [] ->
  (forall n x, nodes st !! n = Some x -> n_live x = true -> n_in_has x = true -> n ∈ l) ->
  exists st', forM_ l queue_report st = (Ok tt, st')
    /\ has_inv st'
    /\ (forall e, e ∈ run_ouh st -> e ∈ run_ouh st')
    /\ (forall n x, n ∈ l -> nodes st !! n = Some x -> n_live x = true -> exists nu, (n, nu) ∈ run_ouh st').
Proof.
  induction l as [|n l IH]; intros st Hval Hst Hfl.
  - exists st. split; [done|]. split_and!; [|done|by intros n x ?%elem_of_nil].
    split; [|rewrite Hst; by intros n ?%elem_of_nil].
    intros n x Hx Hl Hh. exfalso. by eapply elem_of_nil, Hfl.
  - destruct (Hval n ltac:(left)) as [x Hx].
    destruct (queue_report_run n st x Hx) as (st1 & E1 & Hs1 & Hq1 & Hnew & Hfwd & Hback).
    cbn [forM_]. rewrite (bind_eq _ _ _ _ _ E1).
    destruct (IH st1) as (st' & E' & Hinv' & Hq' & Hrun').
    + intros m Hm. destruct (Hval m ltac:(by right)) as [y Hy]. destruct (Hfwd m y Hy) as (y' & -> & _). by eexists.
    + congruence.
    + intros m y' Hy' Hl Hh. destruct (Hback m y' Hy' Hl Hh) as (Hne & y & Hy & Hl0 & Hh0).
      by pose proof (Hfl m y Hy Hl0 Hh0) as [->|Hin]%elem_of_cons.
    + exists st'. split_and!; [done|done|auto|].
      intros m y [->|Hm]%elem_of_cons Hy Hl.
      * simplify_eq. destruct (Hnew Hl) as [nu Hnu]. eauto.
      * destruct (Hfwd m y Hy) as (y' & Hy' & Hl'). eapply Hrun'; [done|exact Hy'|congruence].
Qed.

(* the part before the stack is emptied keeps the invariant and the stack *)
Definition end_prepare_prefix : M unit :=
  modify (fun s => s <| stab_num := (stab_num s + 1)%Z |>) ;;;
  modify (fun s => s <| cur_running := None |>) ;;;
  s <- get ;;
  modify (fun s => s <| set_during := [] |>) ;;;
  forM_ (rev (set_during s)) (fun x =>
    v <- get_var x ;;
    if negb (v_live v) then ret tt else
    match v_pending v with
    | None => ret tt
    | Some value => upd_var x (fun v => v <| v_pending := None |>) ;;; set_var_while_not_stabilising x value
    end) ;;;
  s <- get ;;
  modify (fun s => s <| dead_vars := [] |>) ;;;
  forM_ (dead_vars s) (fun x => upd_var x (fun v => v <| v_node := None |>)).

Definition end_prepare_queue : M unit :=
  s <- get ;;
  modify (fun s => s <| has_stack := [] |>) ;;;
  forM_ (has_stack s) queue_report.

Lemma has_end_prepare_prefix : pres Rhas end_prepare_prefix.
Proof. unfold end_prepare_prefix. go. Qed.

Lemma end_prepare_queue_spec s : has_inv s ->
  exists s', end_prepare_queue s = (Ok tt, s') /\ has_inv s'
    /\ (forall n x, n ∈ has_stack s -> nodes s !! n = Some x -> n_live x = true -> exists nu, (n, nu) ∈ run_ouh s').
Proof.
  intros [A B]. unfold end_prepare_queue. unfold bindM at 1, get at 1. cbv beta iota.
  unfold bindM at 1, modify at 1. cbv beta iota.
  destruct (queue_loop_spec (has_stack s) (s <| has_stack := [] |>)) as (s' & E & Hinv & _ & Hrun); [exact B|done|exact A|].
  exists s'. split_and!; [done|done|]. intros n x Hn Hx Hl. by eapply Hrun.
Qed.

Lemma hi_end_prepare_queue : pres Rhi end_prepare_queue.
Proof. intros s Hi. destruct (end_prepare_queue_spec s Hi) as (s' & E & Hi' & _). rewrite E. done. Qed.

(* the end of the stabilisation is the deferred writes followed by the emptying of the stack *)
Lemma stabilise_end_prepare_split s :
  stabilise_end_prepare s = (end_prepare_prefix ;;; end_prepare_queue) s.
Proof.
  unfold stabilise_end_prepare, end_prepare_prefix, end_prepare_queue, queue_report.
  unfold bindM, modify, get. cbv beta iota.
  (* the same steps on both sides, nested differently: name each loop's outcome and they agree *)
  repeat match goal with |- context [forM_ ?l ?f ?st] => destruct (forM_ l f st) as [[[]| |] ?]; cbv beta iota end; reflexivity.
Qed.

Lemma end_prepare_has_inv : pres Rhi stabilise_end_prepare.
Proof.
  intros s. rewrite stabilise_end_prepare_split.
  apply (lg_bind (J := @pres Rhi)); [|intros _; apply hi_end_prepare_queue].
  apply (pres_weaken Rhas Rhi); [exact Rhi_of_Rhas|exact has_end_prepare_prefix].
Qed.
