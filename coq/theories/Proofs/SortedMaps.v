(* Sorted association lists as maps: lookup, insert, remove, extensionality. *)
From stdpp Require Import base list option numbers sorting.
From Incr.Model Require Import SymDiff MapOps.

Lemma omap_cons {A B} (f : A -> option B) x l :
  omap f (x :: l) = match f x with Some y => y :: omap f l | None => omap f l end.
Proof. done. Qed.

Lemma omap_omap {A B C} (f : A -> option B) (g : B -> option C) (l : list A) :
  omap g (omap f l) = omap (fun x => f x ≫= g) l.
Proof. induction l as [|x l IH]; [done|]. csimpl. destruct (f x) as [y|]; csimpl; [destruct (g y)|]; by rewrite IH. Qed.

Lemma Forall_lt_cons (k k' : Z) l : (k < k')%Z -> Forall (Z.lt k') l -> Forall (Z.lt k) (k' :: l).
Proof. intros ? H. constructor; [done|]. eapply Forall_impl; [done|]. simpl. lia. Qed.

(* Selecting and relabelling entries of a key-sorted list keeps it key-sorted. *)
Lemma sorted_omap {X Y} (kx : X -> Z) (ky : Y -> Z) (f : X -> option Y) l :
  (forall x y, f x = Some y -> ky y = kx x) ->
  StronglySorted Z.lt (kx <$> l) -> StronglySorted Z.lt (ky <$> omap f l).
Proof.
  intros Hf. induction l as [|x l IH]; [done|]. intros [Hs Hx]%StronglySorted_inv.
  rewrite omap_cons. destruct (f x) as [y|] eqn:E; [|by apply IH].
  constructor; [by apply IH|]. rewrite (Hf _ _ E). apply Forall_forall.
  intros ? (y' & -> & (x' & Hx' & E')%elem_of_list_omap)%elem_of_list_fmap.
  rewrite (Hf _ _ E'). eapply Forall_forall in Hx; [done|]. by apply elem_of_list_fmap_1.
Qed.

Section maps.
Context {V : Type}.
Implicit Types m : list (Z * V).

Definition smap m : Prop := StronglySorted Z.lt (keys m).

Lemma smap_nil : smap ([] : list (Z * V)). Proof. constructor. Qed.
Lemma smap_cons_inv k v m : smap ((k, v) :: m) -> smap m /\ Forall (Z.lt k) (keys m).
Proof. intros H. by apply StronglySorted_inv in H. Qed.
Lemma smap_cons k v m : smap m -> Forall (Z.lt k) (keys m) -> smap ((k, v) :: m).
Proof. intros. by constructor. Qed.

Lemma get_head m k v : assoc_get ((k, v) :: m) k = Some v.
Proof. simpl. by rewrite bool_decide_eq_true_2. Qed.
Lemma get_cons_ne m k0 v k : k0 ≠ k -> assoc_get ((k0, v) :: m) k = assoc_get m k.
Proof. intros. simpl. by rewrite bool_decide_eq_false_2. Qed.

Lemma get_Some_elem m k v : assoc_get m k = Some v -> (k, v) ∈ m.
Proof.
  induction m as [|[k' v'] m IH]; [done|]. simpl. case_bool_decide; intros; simplify_eq.
  - left.
  - right. by apply IH.
Qed.

Lemma get_is_Some m k : is_Some (assoc_get m k) <-> k ∈ keys m.
Proof.
  split; [intros [v Hv%get_Some_elem]; by apply (elem_of_list_fmap_1 fst) in Hv|].
  induction m as [|[k' v] m IH]; [by intros ?%elem_of_nil|]. simpl. case_bool_decide; [by eauto|].
  intros [?|?]%elem_of_cons; [done|by apply IH].
Qed.

Lemma elem_get m k v : smap m -> (k, v) ∈ m -> assoc_get m k = Some v.
Proof.
  induction m as [|[k' v'] m IH]; [by intros _ ?%elem_of_nil|].
  intros [Hs Hk]%smap_cons_inv [?|Hin]%elem_of_cons; simplify_eq; [apply get_head|].
  rewrite get_cons_ne; [by apply IH|]. apply (elem_of_list_fmap_1 fst) in Hin.
  eapply Forall_forall in Hk; [|done]. simpl in Hk. lia.
Qed.

Lemma get_lt_None m k : Forall (Z.lt k) (keys m) -> assoc_get m k = None.
Proof.
  intros H. apply eq_None_not_Some. intros Hk%get_is_Some. eapply Forall_forall in H; [|done]. lia.
Qed.

Lemma smap_ext m1 m2 : smap m1 -> smap m2 -> (forall k, assoc_get m1 k = assoc_get m2 k) -> m1 = m2.
Proof.
  revert m2. induction m1 as [|[k1 v1] m1 IH]; intros [|[k2 v2] m2] H1 H2 Hext; [done|..].
  - specialize (Hext k2). by rewrite get_head in Hext.
  - specialize (Hext k1). by rewrite get_head in Hext.
  - apply smap_cons_inv in H1 as [S1 L1]. apply smap_cons_inv in H2 as [S2 L2].
    (* each head key occurs in the other map, so neither is below the other *)
    assert (k1 = k2) as ->.
    { assert (k2 ∈ keys ((k1, v1) :: m1)) as I1 by (apply get_is_Some; rewrite Hext, get_head; eauto).
      assert (k1 ∈ keys ((k2, v2) :: m2)) as I2 by (apply get_is_Some; rewrite <-Hext, get_head; eauto).
      apply elem_of_cons in I1 as [?|I1], I2 as [?|I2]; try done.
      eapply Forall_forall in L1, L2; [|done..]. lia. }
    pose proof (Hext k2) as E. rewrite !get_head in E. injection E as ->.
    f_equal. apply IH; [done..|]. intros k. specialize (Hext k).
    destruct (decide (k2 = k)) as [<-|]; [by rewrite !get_lt_None|by rewrite !get_cons_ne in Hext].
Qed.

Lemma get_insert k v m j : assoc_get (m_insert k v m) j = if bool_decide (j = k) then Some v else assoc_get m j.
Proof.
  induction m as [|[k' v'] m IH]; simpl.
  - repeat case_bool_decide; subst; done.
  - repeat case_bool_decide; subst; simpl; repeat case_bool_decide; subst; try done; try lia.
    all: rewrite IH; repeat case_bool_decide; subst; done.
Qed.

Lemma smap_insert k v m : smap m -> smap (m_insert k v m).
Proof.
  induction m as [|[k' v'] m IH]; intros Hs; simpl.
  - repeat constructor.
  - apply smap_cons_inv in Hs as [Hs Hl]. repeat case_bool_decide; subst.
    + apply smap_cons; [by apply smap_cons|]. by apply Forall_lt_cons.
    + by apply smap_cons.
    + apply smap_cons; [by apply IH|]. apply Forall_forall. intros j [w Hj]%get_is_Some.
      rewrite get_insert in Hj. case_bool_decide; [lia|]. eapply Forall_forall in Hl; [done|]. apply get_is_Some; eauto.
Qed.

Lemma get_remove k m j : smap m -> assoc_get (m_remove k m) j = if bool_decide (j = k) then None else assoc_get m j.
Proof.
  induction m as [|[k' v'] m IH]; intros Hs; simpl.
  - by case_bool_decide.
  - apply smap_cons_inv in Hs as [Hs Hl]. destruct (decide (k = k')) as [<-|];
      [rewrite bool_decide_eq_true_2 by done|rewrite bool_decide_eq_false_2 by done; simpl; rewrite IH by done];
      repeat case_bool_decide; subst; try done.
    by apply get_lt_None.
Qed.

Lemma smap_remove k m : smap m -> smap (m_remove k m).
Proof.
  induction m as [|[k' v'] m IH]; intros Hs; simpl; [done|].
  apply smap_cons_inv in Hs as [Hs Hl]. case_bool_decide; subst; [done|].
  apply smap_cons; [by apply IH|]. apply Forall_forall. intros j [w Hj]%get_is_Some.
  rewrite get_remove in Hj by done. case_bool_decide; [done|]. eapply Forall_forall in Hl; [done|]. apply get_is_Some; eauto.
Qed.

Lemma insert_remove_same m k v : smap m -> assoc_get m k = Some v -> m_insert k v (m_remove k m) = m.
Proof.
  intros Hs Hg. apply smap_ext; [by apply smap_insert, smap_remove|done|].
  intros j. rewrite get_insert, get_remove by done. case_bool_decide; by subst.
Qed.

Lemma insert_replace m k w : smap m -> m_insert k w m = m_insert k w (m_remove k m).
Proof.
  intros Hs. apply smap_ext; [by apply smap_insert|by apply smap_insert, smap_remove|].
  intros j. rewrite !get_insert, get_remove by done. by case_bool_decide.
Qed.

Lemma remove_absent k m : assoc_get m k = None -> m_remove k m = m.
Proof.
  induction m as [|[k' v'] m IH]; [done|]. simpl. rewrite (bool_decide_ext (k = k') (k' = k)) by done.
  case_bool_decide; [done|]. intros. f_equal. by apply IH.
Qed.

Definition m_set k (o : option V) m : list (Z * V) :=
  match o with Some v => m_insert k v m | None => m_remove k m end.

Lemma smap_set k o m : smap m -> smap (m_set k o m).
Proof. destruct o; [apply smap_insert|apply smap_remove]. Qed.

Lemma get_set k o m j : smap m -> assoc_get (m_set k o m) j = if bool_decide (j = k) then o else assoc_get m j.
Proof. intros. destruct o; [apply get_insert|by apply get_remove]. Qed.

Lemma get_omap (f : Z -> option (Z * V)) ks j : (forall k x, f k = Some x -> x.1 = k) ->
  assoc_get (omap f ks) j = if bool_decide (j ∈ ks) then snd <$> f j else None.
Proof.
  intros Hf. induction ks as [|k ks IH]; [done|]. rewrite omap_cons.
  destruct (decide (j = k)) as [->|].
  - rewrite (bool_decide_eq_true_2 (k ∈ k :: ks)) by left.
    destruct (f k) as [[k' v]|] eqn:E; simpl; [apply Hf in E as <-; apply get_head|].
    rewrite IH. by case_bool_decide.
  - rewrite (bool_decide_ext (j ∈ k :: ks) (j ∈ ks)) by (rewrite elem_of_cons; naive_solver).
    destruct (f k) as [[k' v]|] eqn:E; [apply Hf in E as <-|]; by rewrite ?get_cons_ne.
Qed.
End maps.
