(* C14: the children vector of an expert node and the index cells of its edges. *)
From stdpp Require Import base list option numbers.
From RecordUpdate Require Import RecordUpdate.
From Incr.Model Require Import Base Live Engine Api.
From Incr.Proofs Require Import Pres FrameDeps Edges.

Lemma bind_get_expert {B} x (k : expert -> M B) s :
  bindM (get_expert x) k s = match experts s !! x with Some a => k a s | None => (Panic (PModelGap 5), s) end.
Proof. unfold get_expert, bindM, get, ret, panic. by destruct (experts s !! x). Qed.
Lemma bind_get_edge {B} e (k : edge -> M B) s :
  bindM (get_edge e) k s = match edges s !! e with Some a => k a s | None => (Panic (PModelGap 6), s) end.
Proof. unfold get_edge, bindM, get, ret, panic. by destruct (edges s !! e). Qed.

(* the children vector lists distinct edges, and the index cell of the i-th one says i *)
Definition children_ok (s : state) (x : nat) : Prop :=
  exists ex, experts s !! x = Some ex /\ NoDup (ex_children ex)
    /\ forall i e, ex_children ex !! i = Some e ->
         exists ed, edges s !! e = Some ed /\ ed_index ed = Some (Z.of_nat i).

(* the second half, about a vector and an edge table.  It implies the first: an edge occurring at two positions
   would have a cell that says both. *)
Definition cells_ok (l : list nat) (E : list edge) : Prop :=
  forall i e, l !! i = Some e -> ed_index <$> E !! e = Some (Some (Z.of_nat i)).

Lemma children_ok_cells s x :
  children_ok s x <-> exists l, ex_children <$> experts s !! x = Some l /\ cells_ok l (edges s).
Proof.
  unfold children_ok, cells_ok. setoid_rewrite fmap_Some. split.
  - intros (ex & Hx & _ & Hi). exists (ex_children ex). split; [by exists ex|]. intros i e (ed & He & Hd)%Hi. by exists ed.
  - intros (l & (ex & Hx & ->) & Hi). exists ex. split_and!; [done| |].
    + apply NoDup_alt. intros i j e (ed & He & Hd)%Hi (ed' & He' & Hd')%Hi. assert (ed' = ed) as -> by congruence.
      rewrite <- Hd in Hd'. injection Hd'. lia.
    + intros i e (ed & He & Hd)%Hi. by exists ed.
Qed.

Lemma cell_alter c k (E : list edge) e o : ed_index <$> E !! e = Some o ->
  ed_index <$> alter (fun d => d <| ed_index := c |>) k E !! e = Some (if decide (e = k) then c else o).
Proof. intros H. rewrite (fmap_lookup_alter ed_index _ (fun _ => c)), H by done. by case_decide. Qed.

Lemma cells_ok_snoc l E ed : cells_ok l E -> ed_index ed = Some (zlen l) -> cells_ok (l ++ [length E]) (E ++ [ed]).
Proof.
  intros Hi Hd i e [(d & He & Hid)%Hi%fmap_Some|[-> ->]]%lookup_snoc_Some.
  - rewrite (lookup_app_l_Some _ _ _ _ He). simpl. congruence.
  - rewrite list_lookup_middle by done. simpl. by rewrite Hd.
Qed.

(* exchanging positions i and j, and what the cells of the two edges say *)
Lemma cells_ok_swap l E (i j : nat) a b : cells_ok l E -> l !! i = Some a -> l !! j = Some b ->
  cells_ok (<[j := a]> (<[i := b]> l))
    (alter (fun d => d <| ed_index := Some (Z.of_nat i) |>) b (alter (fun d => d <| ed_index := Some (Z.of_nat j) |>) a E)).
Proof.
  intros Hi Ha Hb p e Hp.
  assert (exists q, l !! q = Some e /\ (p = j /\ q = i \/ p = i /\ q = j \/ p <> i /\ p <> j /\ q = p)) as (q & Hq & Hpq).
  { apply list_lookup_insert_Some in Hp as [(<- & <- & _)|[? [(<- & <- & _)|[? Hp]]%list_lookup_insert_Some]]; eauto 8. }
  pose proof (Hi _ _ Ha) as Hca. pose proof (Hi _ _ Hb) as Hcb. pose proof (Hi _ _ Hq) as He.
  rewrite (cell_alter _ _ _ _ _ (cell_alter _ _ _ _ _ He)).
  destruct Hpq as [[-> ->]|[[-> ->]|(? & ? & ->)]]; repeat case_decide; simplify_eq; try done; do 2 f_equal; lia.
Qed.

Lemma cells_ok_pop l p E : cells_ok (l ++ [p]) E -> cells_ok l (alter (fun d => d <| ed_index := None |>) p E).
Proof.
  intros Hi i e He. pose proof (Hi (length l) p (list_lookup_middle _ [] _ _ eq_refl)) as Hp.
  apply lookup_lt_Some in He as Hlt. apply (lookup_app_l_Some _ [p]), Hi in He.
  rewrite (cell_alter _ _ _ _ _ He). case_decide; naive_solver lia.
Qed.

(* ---- what is not written is kept *)
Lemma dep_children s s' x : Rdep s s' -> ex_children <$> experts s' !! x = ex_children <$> experts s !! x.
Proof. intros [H _]. by rewrite <- !list_lookup_fmap, H. Qed.
Lemma dep_edge s s' e : Rdep s s' -> edge_core <$> edges s' !! e = edge_core <$> edges s !! e.
Proof. intros [_ H]. by rewrite <- !list_lookup_fmap, H. Qed.
Lemma dep_cell s s' e : Rdep s s' -> ed_index <$> edges s' !! e = ed_index <$> edges s !! e.
Proof. intros R. change ed_index with (snd ∘ edge_core). by rewrite !option_fmap_compose, (dep_edge _ _ _ R). Qed.
Lemma cells_ok_dep s s' x l : Rdep s s' -> ex_children <$> experts s !! x = Some l -> cells_ok l (edges s) ->
  ex_children <$> experts s' !! x = Some l /\ cells_ok l (edges s').
Proof. intros R Hx Hi. split; [by rewrite (dep_children _ _ _ R)|]. intros i e ?%Hi. by rewrite (dep_cell _ _ _ R). Qed.
(* ---- add_dependency appends a fresh edge *)
Lemma add_dependency_children fuel n child cb s eid s' x nd :
  nodes s !! n = Some nd -> node_kind nd = Some (KExpert x) -> children_ok s x ->
  expert_add_dependency fuel n child cb s = (Ok eid, s') ->
  eid = length (edges s)
  /\ (exists ex ex', experts s !! x = Some ex /\ experts s' !! x = Some ex' /\ ex_children ex' = ex_children ex ++ [eid])
  /\ (exists ed, edges s' !! eid = Some ed /\ ed_child ed = child)
  /\ children_ok s' x.
Proof.
  intros Hn Hk Hok H. pose proof Hok as (ex & Hx & _). apply children_ok_cells in Hok as (l & Hl & Hi).
  rewrite Hx in Hl. injection Hl as <-.
  unfold expert_add_dependency, upd_expert in H.
  rewrite bind_get, bind_get_node, Hn, Hk, bind_get_expert, Hx, !bind_modify in H.
  match type of H with bindM ?a ?k ?st = _ => set (s2 := st) in * end.
  assert (ex_children <$> experts s2 !! x = Some (ex_children ex ++ [length (edges s)])) as Hx2
    by (simpl; by rewrite list_lookup_alter, Hx).
  (* the rest only links the new child: it does not touch children vectors or index cells *)
  apply bind_ok in H as (nd2 & s3 & E3 & H). apply get_node_ok in E3 as [-> _].
  apply bind_ok in H as ([] & s4 & E4 & H). unfold ret in H. injection H as <- <-.
  assert (Rdep s2 s4) as R by (eapply pres_run; [|exact E4]; destruct (is_necessary nd2); go).
  split; [done|]. split_and!.
  - rewrite <- (dep_children _ _ _ R) in Hx2. apply fmap_Some in Hx2 as (ex4 & Hx4 & Hc4). by exists ex, ex4.
  - pose proof (dep_edge _ _ (length (edges s)) R) as He. simpl in He. rewrite list_lookup_middle in He by done.
    apply fmap_Some in He as (ed & He & [= Hc _ _]). by exists ed.
  - apply children_ok_cells. eexists. eapply cells_ok_dep; [exact R|done|by apply cells_ok_snoc].
Qed.

(* ---- swap_children keeps the vector and the cells in step *)
Lemma zset_nat {A} (l : list A) (i : nat) x : zset l (Z.of_nat i) x = <[i := x]> l.
Proof. unfold zset. by rewrite Nat2Z.id. Qed.

Lemma swap_children_ok x (i j : nat) s s' l a b :
  ex_children <$> experts s !! x = Some l -> cells_ok l (edges s) -> l !! i = Some a -> l !! j = Some b ->
  ex_swap_children x (Z.of_nat i) (Z.of_nat j) s = (Ok tt, s') ->
  ex_children <$> experts s' !! x = Some (<[j := a]> (<[i := b]> l)) /\ cells_ok (<[j := a]> (<[i := b]> l)) (edges s').
Proof.
  intros (ex & Hx & ->)%fmap_Some Hi Ha Hb H.
  apply Hi in Ha as Hea, Hb as Heb. apply fmap_Some in Hea as (ea & Hea & Hia), Heb as (eb & Heb & Hib).
  unfold ex_swap_children in H. rewrite bind_get_expert, Hx, !zget_nat, Ha, Hb, bind_get_edge, Hea, bind_get_edge, Heb, <- Hia, <- Hib in H.
  unfold bindM, upd_edge, upd_expert, modify in H. injection H as <-. simpl.
  rewrite list_lookup_alter, Hx. simpl. rewrite !zset_nat. split; [done|]. by apply cells_ok_swap.
Qed.

(* ---- pop_child_edge drops the last edge and clears its cell *)
Lemma pop_child_edge_ok x s s' r l p :
  ex_children <$> experts s !! x = Some (l ++ [p]) -> cells_ok (l ++ [p]) (edges s) ->
  ex_pop_child_edge x s = (Ok r, s') ->
  r = Some p /\ ex_children <$> experts s' !! x = Some l /\ cells_ok l (edges s')
  /\ ed_index <$> edges s' !! p = Some None.
Proof.
  intros (ex & Hx & Hl)%fmap_Some Hi H.
  unfold ex_pop_child_edge in H. rewrite bind_get_expert, Hx, <- Hl, last_snoc in H.
  unfold bindM, upd_expert, upd_edge, modify, ret in H. injection H as <- <-. simpl.
  rewrite list_lookup_alter, Hx. simpl. rewrite <- Hl, removelast_last. split_and!; [done..|by apply cells_ok_pop|].
  pose proof (Hi _ _ (list_lookup_middle _ [] _ _ eq_refl)) as Hp. rewrite (cell_alter _ _ _ _ _ Hp). by rewrite decide_True.
Qed.

(* swap entry i (holding x) with the last one, then look at the list: x is last, and what precedes it is the
   old list without x *)
Lemma swap_to_end {A} (l : list A) i x y : NoDup (l ++ [y]) -> (l ++ [y]) !! i = Some x ->
  <[length l := x]> (<[i := y]> (l ++ [y])) = <[i := y]> l ++ [x]
  /\ forall e, e ∈ <[i := y]> l <-> e ∈ l ++ [y] /\ e <> x.
Proof.
  intros Hnd Hi. apply lookup_lt_Some in Hi as Hl. rewrite app_length in Hl. simpl in Hl. split.
  - destruct (decide (i = length l)) as [->|].
    + rewrite list_insert_insert, (list_insert_ge l), insert_app_r_alt, Nat.sub_diag by done. done.
    + rewrite insert_app_l, insert_app_r_alt by (rewrite ?insert_length; lia). by rewrite insert_length, Nat.sub_diag.
  - intros e. rewrite elem_of_app, elem_of_list_singleton, !elem_of_list_lookup. setoid_rewrite list_lookup_insert_Some. split.
    + intros [j [(Eij & Eye & Hj)|[Hij Hj]]].
      * subst j e. split; [by right|]. intros <-. assert (i = length l); [|lia].
        eapply NoDup_lookup; [exact Hnd|exact Hi|]. by rewrite lookup_app_r, Nat.sub_diag.
      * split; [left; by exists j|]. intros ->. apply Hij. symmetry. eapply NoDup_lookup; [done| |done]. by apply lookup_app_l_Some.
    + intros [[[j Hj]| ->] Hne].
      * exists j. right. split; [|done]. intros <-. apply Hne. apply (lookup_app_l_Some _ [y]) in Hj. congruence.
      * exists i. left. split_and!; [done..|]. destruct (decide (i = length l)) as [->|]; [|lia].
        rewrite lookup_app_r, Nat.sub_diag in Hi by done. by injection Hi.
Qed.

(* ---- remove_dependency: the edge leaves the vector, the others keep cell = position *)
Lemma remove_dependency_children fuel n eid s s' x nd ex :
  nodes s !! n = Some nd -> node_kind nd = Some (KExpert x) -> children_ok s x ->
  experts s !! x = Some ex -> eid ∈ ex_children ex ->
  expert_remove_dependency fuel n eid s = (Ok tt, s') ->
  children_ok s' x
  /\ (exists ex', experts s' !! x = Some ex' /\ forall e, e ∈ ex_children ex' <-> e ∈ ex_children ex /\ e <> eid)
  /\ (exists ed, edges s' !! eid = Some ed /\ ed_index ed = None).
Proof.
  intros Hn Hk Hok Hx Hin H. pose proof Hok as (? & ? & Hnd & _). simplify_eq.
  apply children_ok_cells in Hok as (l & Hl & Hi). rewrite Hx in Hl. injection Hl as <-.
  apply elem_of_list_lookup in Hin as [i0 Hi0].
  destruct (stdpp.list.last (ex_children ex)) as [p|] eqn:Hlast; [|apply last_None in Hlast; by rewrite Hlast in Hi0].
  apply last_Some in Hlast as [l' Hl]. rewrite Hl in Hnd, Hi, Hi0 |- *.
  pose proof (list_lookup_middle l' [] p _ eq_refl) as Hp.
  pose proof (Hi _ _ Hi0) as (ed & Hed & Hidx)%fmap_Some.
  unfold expert_remove_dependency in H. rewrite bind_get_edge, Hed, <- Hidx, bind_get_node, Hn, Hk in H.
  (* the debug check reads only *)
  apply bind_ok in H as ([] & s1 & E1 & H).
  assert (Rdep s s1) as R1 by (eapply pres_run; [|exact E1]; go).
  destruct (cells_ok_dep _ _ x (l' ++ [p]) R1) as [Hx1 Hi1]; [by rewrite Hx, <- Hl|done|].
  pose proof Hx1 as (ex1 & Hex1 & Hc1)%fmap_Some. pose proof (Hi1 _ _ Hp) as (led & Hled & Hlidx)%fmap_Some.
  rewrite bind_get_expert, Hex1, <- Hc1, last_snoc, bind_get_edge, Hled, <- Hlidx in H.
  (* the swap *)
  apply bind_ok in H as ([] & s2 & E2 & H).
  assert (ex_children <$> experts s2 !! x = Some (<[length l' := eid]> (<[i0 := p]> (l' ++ [p])))
          /\ cells_ok (<[length l' := eid]> (<[i0 := p]> (l' ++ [p]))) (edges s2)) as [Hx2 Hi2].
  { case_bool_decide as Heq.
    - unfold ret in E2. injection E2 as <-. assert (i0 = length l') as -> by lia. rewrite Hp in Hi0. injection Hi0 as <-.
      by rewrite list_insert_insert, list_insert_id.
    - apply bind_ok in E2 as (nd2 & s0 & E0 & E2). apply get_node_ok in E0 as [-> _].
      apply bind_ok in E2 as ([] & s15 & E15 & E2).
      assert (Rdep s1 s15) as R15 by (eapply pres_run; [|exact E15]; destruct (is_necessary nd2); go).
      destruct (cells_ok_dep _ _ x _ R15 Hx1 Hi1). by eapply swap_children_ok. }
  (* everything up to the pop leaves vectors and cells alone *)
  apply bind_ok in H as ([] & s3 & E3 & H).
  assert (Rdep s2 s3) as R3 by (eapply pres_run; [|exact E3]; go).
  apply bind_ok in H as ([] & s4 & E4 & H).
  assert (Rdep s3 s4) as R4 by (eapply pres_run; [|exact E4]; go).
  apply bind_ok in H as (nd4 & s0 & E0 & H). apply get_node_ok in E0 as [-> _].
  apply bind_ok in H as ([] & s5 & E5 & H).
  assert (Rdep s4 s5) as R5 by (eapply pres_run; [|exact E5]; destruct (is_necessary nd4); go).
  assert (Rdep s2 s5) as R25 by (by do 2 (etrans; [eassumption|])).
  destruct (cells_ok_dep _ _ _ _ R25 Hx2 Hi2) as [Hx5 Hi5].
  (* the pop *)
  destruct (swap_to_end l' i0 eid p Hnd Hi0) as [Esw Hel]. rewrite Esw in Hx5, Hi5.
  apply bind_ok in H as (popped & s6 & E6 & H).
  destruct (pop_child_edge_ok _ _ _ _ _ _ Hx5 Hi5 E6) as (-> & Hx6 & Hi6 & (ed6 & Hed6 & Hnone)%fmap_Some).
  assert (s' = s6) as ->.
  { unfold dassert, bindM, gets, ret in H. destruct (debug s6); [case_bool_decide; by simplify_eq|by simplify_eq]. }
  split_and!; [apply children_ok_cells; eauto| |by exists ed6].
  apply fmap_Some in Hx6 as (ex6 & Hx6 & Hc6). exists ex6. split; [done|]. rewrite <- Hc6. apply Hel.
Qed.

(* make_stale: sets the flag; a second call before the recompute changes nothing *)
Lemma make_stale_idempotent n s nd x ex :
  nodes s !! n = Some nd -> node_kind nd = Some (KExpert x) -> experts s !! x = Some ex -> ex_force_stale ex = true ->
  debug s = false -> expert_make_stale n s = (Ok tt, s).
Proof.
  intros Hn Hk Hx Hf Hd. unfold expert_make_stale, get_node, bindM, get, ret. cbv beta iota. rewrite Hn. cbv beta iota. rewrite Hk.
  unfold assert_running_is_child, bindM, gets, ret. cbv beta iota. rewrite Hd.
  unfold get_expert, bindM, get, ret. cbv beta iota. rewrite Hx. cbv beta iota. by rewrite Hf.
Qed.
