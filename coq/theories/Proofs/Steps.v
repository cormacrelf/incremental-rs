(* Small facts the hand proofs about single engine functions share: equations that run straight-line
   code of the engine monad from a given state, one step at a time ([bind_*]), along a path that is
   determined ([_eq]), or taking a successful run apart ([_ok]); computations that only read ([ro]);
   and what a lookup finds in a table after one of the elementary writes (a cell altered, a cell
   appended, the collector's sweep). *)
From stdpp Require Import base list option numbers.
From RecordUpdate Require Import RecordUpdate.
From Incr.Model Require Import Base Live Engine Api.
From Incr.Proofs Require Export Logic.

Lemma bind_get {B} (k : state -> M B) s : bindM get k s = k s s.
Proof. done. Qed.
Lemma bind_gets {A B} (f : state -> A) (k : A -> M B) s : bindM (gets f) k s = k (f s) s.
Proof. done. Qed.
Lemma bind_ret {A B} (a : A) (k : A -> M B) s : bindM (ret a) k s = k a s.
Proof. done. Qed.
Lemma bind_modify {B} f (k : unit -> M B) s : bindM (modify f) k s = k tt (f s).
Proof. done. Qed.
Lemma bind_upd_node {B} n f (k : unit -> M B) s : bindM (upd_node n f) k s = k tt (s <| nodes := alter f n (nodes s) |>).
Proof. done. Qed.
Lemma bind_when {B} b f (k : unit -> M B) s : bindM (when b (modify f)) k s = k tt (if b then f s else s).
Proof. by destruct b. Qed.
Lemma bind_get_node {B} n (k : node -> M B) s :
  bindM (get_node n) k s = match nodes s !! n with Some x => k x s | None => (Panic (PModelGap 1), s) end.
Proof. unfold get_node, bindM, get, ret, panic. by destruct (nodes s !! n). Qed.
Lemma bind_ok {A B} (m : M A) (k : A -> M B) s b s' :
  bindM m k s = (Ok b, s') -> exists a s1, m s = (Ok a, s1) /\ k a s1 = (Ok b, s').
Proof. unfold bindM. destruct (m s) as [[a| |] s1]; intros H; [|done..]. by exists a, s1. Qed.

Lemma bind_bind {A B C} (m : M A) (k1 : A -> M B) (k2 : B -> M C) s :
  bindM (bindM m k1) k2 s = bindM m (fun a => bindM (k1 a) k2) s.
Proof. unfold bindM. by destruct (m s) as [[]]. Qed.
Lemma bind_eq {A B} (m : M A) (k : A -> M B) s a s1 : m s = (Ok a, s1) -> bindM m k s = k a s1.
Proof. intros E. unfold bindM. by rewrite E. Qed.

Lemma get_node_run n s :
  get_node n s = (match nodes s !! n with Some x => Ok x | None => Panic (PModelGap 1) end, s).
Proof. unfold get_node, bindM, get. by destruct (nodes s !! n). Qed.
Lemma get_node_eq n s x : nodes s !! n = Some x -> get_node n s = (Ok x, s).
Proof. intros E. by rewrite get_node_run, E. Qed.
Lemma get_bind_eq b s bd : binds s !! b = Some bd -> get_bind b s = (Ok bd, s).
Proof. intros E. unfold get_bind, bindM, get. by rewrite E. Qed.
Lemma get_var_eq x s v : vars s !! x = Some v -> get_var x s = (Ok v, s).
Proof. intros E. unfold get_var, bindM, get. by rewrite E. Qed.

Lemma get_node_ok n s a s' : get_node n s = (Ok a, s') -> s' = s /\ nodes s !! n = Some a.
Proof. rewrite get_node_run. destruct (nodes s !! n); intros H; by simplify_eq. Qed.
Lemma get_obs_run o s :
  get_obs o s = (match obss s !! o with Some ob => Ok ob | None => Panic (PModelGap 4) end, s).
Proof. unfold get_obs, bindM, get. by destruct (obss s !! o). Qed.

(* debug_assert! on a condition read off the state, and on one read off a node *)
Lemma bind_dassert_state {B} (f : state -> bool) site (k : unit -> M B) s :
  bindM (dassert (s0 <- get ;; ret (f s0)) site) k s =
  if debug s && negb (f s) then (Panic (PDebugAssert site), s) else k tt s.
Proof. unfold dassert, bindM, gets, get, ret, panic. destruct (debug s); [|done]. by destruct (f s). Qed.
Lemma bind_dassert_node {B} (f : node -> state -> bool) n site (k : unit -> M B) s : debug s = true ->
  bindM (dassert (x <- get_node n ;; s0 <- get ;; ret (f x s0)) site) k s =
  match nodes s !! n with
  | Some x => if f x s then k tt s else (Panic (PDebugAssert site), s)
  | None => (Panic (PModelGap 1), s)
  end.
Proof.
  intros Hd. unfold dassert, get_node, bindM, gets, get, ret, panic. rewrite Hd.
  destruct (nodes s !! n) as [x|]; [|done]. by destruct (f x s).
Qed.
Lemma bind_dassert_node' {B} (f : node -> bool) n site (k : unit -> M B) s : debug s = true ->
  bindM (dassert (x <- get_node n ;; ret (f x)) site) k s =
  match nodes s !! n with
  | Some x => if f x then k tt s else (Panic (PDebugAssert site), s)
  | None => (Panic (PModelGap 1), s)
  end.
Proof. exact (bind_dassert_node (fun x _ => f x) n site k s). Qed.

Lemma bind_dassert_true {B} site (k : unit -> M B) s : bindM (dassert (ret true) site) k s = k tt s.
Proof. rewrite (bind_dassert_state (fun _ => true)). by rewrite andb_false_r. Qed.

Lemma recompute_one_eq fuel n s :
  recompute_one fuel n s =
  recompute_body fuel n
    (s <| events := EvRecompute n :: events s |>
       <| num_recomputed := (num_recomputed s + 1)%Z |> <| cur_running := if debug s then Some n else cur_running s |>
       <| nodes := alter (fun x => x <| n_recomputed_at := stab_num s |>) n (nodes s) |>).
Proof. reflexivity. Qed.

(* ---- histories.  [run] unfolded once, in a form whose pieces later proofs can name without
   reducing [step] or the record update *)
Lemma run_cons fuel o ops st s :
  run fuel (o :: ops) st s =
    let rs := step fuel st o (s <| events := [] |>) in
    let s1 := end_of_op rs.2 in
    (match rs.1 with Ok (_, out) => Ok out | Panic t => Panic t | OutOfFuel => OutOfFuel end,
     rev (events s1), s1)
    :: run fuel ops (match rs.1 with Ok (st', _) => st' | _ => st end) s1.
Proof. cbn [run]. destruct (step _ _ _ _) as [[[? ?]| |] ?]; reflexivity. Qed.

(* what every operation (of a kind P) keeps, whatever its outcome, holds of every state of a history
   (of operations of that kind) *)
Lemma run_invariant_ops (P : op -> Prop) (I : state -> Prop) fuel :
  (forall st o s, P o -> I s -> I (end_of_op (step fuel st o (s <| events := [] |>)).2)) ->
  forall ops st s, Forall P ops -> I s -> Forall (fun e => I e.2) (run fuel ops st s).
Proof.
  intros H. induction ops as [|o ops IH]; intros st s Hops Hs; [constructor|].
  apply Forall_cons_1 in Hops as [Ho Hops]. rewrite run_cons. constructor; [|apply IH; [done|]]; by apply H.
Qed.
Lemma run_invariant (I : state -> Prop) fuel :
  (forall st o s, I s -> I (end_of_op (step fuel st o (s <| events := [] |>)).2)) ->
  forall ops st s, I s -> Forall (fun e => I e.2) (run fuel ops st s).
Proof.
  intros H ops st s. apply (run_invariant_ops (fun _ => True)); [auto|]. by apply Forall_true.
Qed.

(* ---- computations that only read: whatever the outcome, the state is the one they started in *)
Definition ro {A} (m : M A) : Prop := forall s, (m s).2 = s.

Global Instance ro_logic : Logic (@ro) (fun _ => True).
Proof.
  split; try done. intros A B m k Hm Hk s. unfold bindM. specialize (Hm s).
  destruct (m s) as [[a| |] s1]; simpl in *; subst; [apply Hk|done..].
Qed.

Lemma ro_run {A} (m : M A) s : ro m -> m s = ((m s).1, s).
Proof. intros H. rewrite <- (H s) at 3. by destruct (m s). Qed.

Lemma lookup_alter_decide {A} (f : A -> A) k (l : list A) x :
  alter f k l !! x = (if decide (x = k) then f else id) <$> l !! x.
Proof.
  case_decide as Hx; [rewrite Hx; apply list_lookup_alter|rewrite list_lookup_alter_ne by done; by destruct (l !! x)].
Qed.
Lemma lookup_alter_Some {A} (f : A -> A) (l : list A) i j y :
  alter f i l !! j = Some y -> exists x, l !! j = Some x /\ (i = j /\ y = f x \/ i <> j /\ y = x).
Proof.
  destruct (decide (i = j)) as [->|Hne].
  - rewrite list_lookup_alter. destruct (l !! j) as [x|]; [|done]. intros [= <-]. exists x. auto.
  - rewrite list_lookup_alter_ne by done. intros Hy. exists y. auto.
Qed.

Lemma lookup_snoc_Some {A} (l : list A) x i y : (l ++ [x]) !! i = Some y -> l !! i = Some y \/ i = length l /\ y = x.
Proof.
  intros [H|[Hi H]]%lookup_app_Some; [by left|]. apply list_lookup_singleton_Some in H as [Hi' <-].
  right. split; [lia|done].
Qed.

Lemma lookup_sweep_Some {A} (keep : nat -> bool) (mark : A -> A) (l : list A) i y :
  imap (fun i x => if keep i then x else mark x) l !! i = Some y ->
  exists x, l !! i = Some x /\ (y = x \/ y = mark x).
Proof.
  rewrite list_lookup_imap. destruct (l !! i) as [x|]; [|done]. intros [= <-]. exists x.
  destruct (keep i); auto.
Qed.
